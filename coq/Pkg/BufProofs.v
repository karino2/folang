(** C14 — a buffer accumulates its writes in order, whatever happens to other buffers
    (model: Buf.v), over all operation histories. *)
From Coq Require Import List Ascii Arith Bool Lia.
From FoVerif Require Import Pkg.Buf.
Import ListNotations.

(** an element-by-element comparison of lists decides equality when the comparison of elements
    does; the comparison is given by its unfolding equation, so that the byte-string and
    name-list comparisons of the models (one Fixpoint each) are all instances *)
Lemma list_eqb_eq : forall {A} (eqb : A -> A -> bool) (leqb : list A -> list A -> bool),
  (forall x y, eqb x y = true <-> x = y) ->
  (forall a b, leqb a b = match a, b with
                          | [], [] => true
                          | x :: a', y :: b' => eqb x y && leqb a' b'
                          | _, _ => false
                          end) ->
  forall a b, leqb a b = true <-> a = b.
Proof.
  intros A eqb leqb Heqb Hl. induction a as [|x a IH]; intros [|y b]; rewrite Hl; try (split; congruence).
  rewrite andb_true_iff, Heqb, IH. split; [intros [-> ->]; reflexivity|intro H; inversion H; auto].
Qed.

Lemma upd_length : forall {A} (l : list A) i x, List.length (upd l i x) = List.length l.
Proof. induction l as [|a l IH]; intros i x; destruct i; cbn; auto. Qed.

Lemma nth_upd : forall {A} (l : list A) i j x d, i < List.length l ->
  nth j (upd l i x) d = if j =? i then x else nth j l d.
Proof.
  induction l as [|a l IH]; intros i j x d H; cbn in H; [lia|].
  destruct i, j; cbn; try reflexivity.
  apply IH. lia.
Qed.

Lemma nth_snoc_default : forall {A} (l : list A) d i, nth i (l ++ [d]) d = nth i l d.
Proof.
  intros A l d i. destruct (Nat.lt_ge_cases i (List.length l)) as [L|L]; [apply app_nth1, L|].
  rewrite (nth_overflow l), app_nth2 by exact L. destruct (i - List.length l) as [|[|?]]; reflexivity.
Qed.

Lemma brun_store : forall ops st,
  List.length (fst (brun st ops)) = List.length st + news ops /\
  forall id, nth id (fst (brun st ops)) [] = nth id st [] ++ spec_content id (List.length st) ops.
Proof.
  induction ops as [|o ops IH]; intro st.
  - cbn. split; [lia|]. intro id. rewrite app_nil_r. reflexivity.
  - cbn [brun]. destruct (bstep st o) as [st1 x] eqn:E.
    specialize (IH st1). destruct (brun st1 ops) as [st2 xs] eqn:E2. cbn [fst] in *.
    destruct IH as [IHl IHc].
    destruct o as [|j s|j]; cbn [bstep] in E.
    + (* New *) injection E as <- <-. rewrite last_length in *. cbn [news spec_content]. split; [lia|].
      intro id. rewrite IHc. f_equal. apply nth_snoc_default.
    + (* Write *) destruct (nth_error st j) as [bj|] eqn:N; injection E as E1 E3; subst st1 x.
      * assert (Lj : j < List.length st) by (apply nth_error_Some; congruence).
        rewrite upd_length in *. cbn [news]. split; [exact IHl|].
        intro id. rewrite IHc. cbn [spec_content]. rewrite nth_upd by exact Lj.
        rewrite (proj2 (Nat.ltb_lt _ _) Lj), andb_true_r, (Nat.eqb_sym j id).
        destruct (id =? j) eqn:Eid.
        -- apply Nat.eqb_eq in Eid. subst id. unfold bb_write.
           pose proof (nth_error_nth _ _ [] N) as Nj. unfold bytes, store in *. rewrite Nj.
           rewrite <- app_assoc. reflexivity.
        -- reflexivity.
      * cbn [news]. split; [exact IHl|]. intro id. rewrite IHc. cbn [spec_content].
        rewrite (proj2 (Nat.ltb_ge _ _)), andb_false_r by (apply nth_error_None, N). reflexivity.
    + (* String *) assert (E1 : st1 = st) by (destruct (nth_error st j); injection E as E1 E3; congruence). subst st1.
      cbn [news spec_content]. split; [exact IHl|exact IHc].
Qed.

Lemma brun_string_at : forall pre st id post,
  nth_error (snd (brun st (pre ++ BString id :: post))) (List.length pre) =
  Some (match nth_error (fst (brun st pre)) id with Some b => BStr (bb_string b) | None => BInvalid end).
Proof.
  induction pre as [|o pre IH]; intros st id post; cbn [app brun bstep List.length fst].
  - destruct (nth_error st id), (brun st post); reflexivity.
  - destruct (bstep st o) as [st1 x]. specialize (IH st1 id post).
    destruct (brun st1 (pre ++ BString id :: post)), (brun st1 pre). exact IH.
Qed.

(** buf.String at any point of any history returns exactly the strings written to that buffer
    before it, concatenated in order *)
Theorem buf_accumulates_in_order : forall pre id post,
  id < news pre ->
  nth_error (snd (brun [] (pre ++ BString id :: post))) (List.length pre)
  = Some (BStr (spec_content id 0 pre)).
Proof.
  intros pre id post H. rewrite brun_string_at. destruct (brun_store pre []) as [L C].
  rewrite (nth_error_nth' (fst (brun [] pre)) (n := id) []), C by (rewrite L; exact H).
  (* the history starts from no buffer at all: [nth id [] []] is [[]] for either shape of [id] *)
  destruct id; reflexivity.
Qed.
