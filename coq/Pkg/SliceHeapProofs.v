(** C12/C13 — per function: frame (no existing array is modified), validity of the result and
    refinement of the List specification, with the exact panic domain. *)
From Coq Require Import List Arith Lia Bool ZArith Permutation Sorted.
From FoVerif Require Import Pkg.SliceHeap Pkg.SliceHeapBase.
Import ListNotations.

Definition refines (h' : heap) (r : result slice) (spec : result (list val)) : Prop :=
  match spec with
  | Ok l => exists res, r = Ok res /\ valid h' res /\ contents h' res = l
  | Panic p => r = Panic p
  end.

(** list-level meaning of a range loop whose body appends [emit st i e] and moves the state to
    [next st i e] *)
Fixpoint range_spec {St : Type} (emit : St -> nat -> val -> list val) (next : St -> nat -> val -> St)
    (st : St) (i : nat) (l : list val) : list val :=
  match l with
  | [] => []
  | e :: t => emit st i e ++ range_spec emit next (next st i e) (S i) t
  end.

(** what is assumed of a slice-returning callback: it modifies nothing that exists and returns a
    valid slice whose contents are a function [fs] of the element *)
Definition cb_ok (n : nat) (h0 : heap) (f : callback) (fs : val -> list val) : Prop :=
  forall h e h1 one, frame n h0 h -> n <= length h -> f h e = (h1, one) ->
    heap_extends h h1 /\ valid h1 one /\ contents h1 one = fs e.

Definition sorted_by (key : val -> Z) (l : list val) : Prop :=
  Sorted (fun x y => (key x <= key y)%Z) l.

Lemma building_done {h h' res l} : building h h' res l -> heap_extends h h' /\ refines h' (Ok res) (Ok l).
Proof. intros (X & _ & V & C). split; [exact X|]. exists res. auto. Qed.

Lemma last_nth {A} (l : list A) d : last l d = nth (length l - 1) l d.
Proof. induction l as [|x l IH]; [reflexivity|]. destruct l as [|y l]; [reflexivity|].
  cbn [last length] in *. rewrite IH. cbn. rewrite Nat.sub_0_r. reflexivity. Qed.

Section Readers.
Variables (h : heap) (s : slice).
Hypothesis V : valid h s.

Lemma empty_header : (slen s =? 0) = match contents h s with [] => true | _ => false end.
Proof. rewrite <- (contents_length V). destruct (contents h s); reflexivity. Qed.

Theorem Length_spec : Length h s = Z.of_nat (length (contents h s)).
Proof. unfold Length. rewrite (contents_length V). reflexivity. Qed.
Theorem Len_spec : Len h s = Z.of_nat (length (contents h s)).
Proof. exact Length_spec. Qed.
Theorem IsEmpty_spec : IsEmpty h s = match contents h s with [] => true | _ => false end.
Proof. exact empty_header. Qed.
Theorem IsNotEmpty_spec : IsNotEmpty h s = match contents h s with [] => false | _ => true end.
Proof. unfold IsNotEmpty. rewrite empty_header. destruct (contents h s); reflexivity. Qed.
Theorem Item_spec index : Item h index s = spec_item index (contents h s).
Proof. unfold Item, spec_item. rewrite (contents_length V).
  destruct ((index <? 0)%Z || (Z.of_nat (slen s) <=? index)%Z) eqn:C; [reflexivity|].
  apply orb_false_iff in C. destruct C as (C1 & C2). apply Z.ltb_ge in C1. apply Z.leb_gt in C2.
  f_equal. apply get_contents. lia. Qed.
Theorem Head_spec : Head h s = spec_head (contents h s).
Proof. unfold Head, spec_head. rewrite empty_header.
  pose proof (@get_contents h s 0) as G. pose proof (contents_length V) as CL.
  destruct (contents h s); [reflexivity|]. rewrite G by (cbn in CL; lia). reflexivity. Qed.
Theorem Last_spec : Last h s = spec_last (contents h s).
Proof. unfold Last, spec_last. rewrite empty_header.
  pose proof (@get_contents h s (slen s - 1)) as G. pose proof (contents_length V) as CL.
  destruct (contents h s); [reflexivity|]. rewrite G, last_nth, CL by (cbn in CL; lia). reflexivity. Qed.

Lemma iter_loop_spec : forall k i, i + k = slen s -> iter_loop k i h s = skipn i (contents h s).
Proof. induction k as [|k IH]; intros i H; cbn [iter_loop].
  - rewrite skipn_all2; [reflexivity|rewrite (contents_length V); lia].
  - rewrite (skipn_nth_cons (contents h s) i vdef) by (rewrite (contents_length V); lia).
    rewrite get_contents by lia. f_equal. apply IH. lia. Qed.
Theorem Iter_spec : Iter h s = contents h s.
Proof. apply (iter_loop_spec (slen s) 0). reflexivity. Qed.

(** the other reading loops see the elements Iter sees *)
Lemma forall_loop_iter p k i : forall_loop p k i h s = forallb p (iter_loop k i h s).
Proof. revert i; induction k as [|k IH]; intros i; cbn; [reflexivity|]. rewrite IH.
  destruct (p (get h s i)); reflexivity. Qed.
Lemma forany_loop_iter p k i : forany_loop p k i h s = existsb p (iter_loop k i h s).
Proof. revert i; induction k as [|k IH]; intros i; cbn; [reflexivity|]. rewrite IH.
  destruct (p (get h s i)); reflexivity. Qed.
Lemma tryfind_loop_iter p k i : tryfind_loop p k i h s = spec_tryfind p (iter_loop k i h s).
Proof. revert i; induction k as [|k IH]; intros i; cbn; [reflexivity|]. rewrite IH. unfold spec_tryfind. cbn.
  destruct (p (get h s i)); reflexivity. Qed.
Lemma fold_loop_iter f k i st : fold_loop f k i st h s = fold_left f (iter_loop k i h s) st.
Proof. revert i st; induction k as [|k IH]; intros i st; cbn; [reflexivity|apply IH]. Qed.

Theorem Forall_spec p : Forall p h s = forallb p (contents h s).
Proof. unfold Forall. rewrite forall_loop_iter. exact (f_equal _ Iter_spec). Qed.
Theorem Forany_spec p : Forany p h s = existsb p (contents h s).
Proof. unfold Forany. rewrite forany_loop_iter. exact (f_equal _ Iter_spec). Qed.
Theorem TryFind_spec p : TryFind p h s = spec_tryfind p (contents h s).
Proof. unfold TryFind. rewrite tryfind_loop_iter. exact (f_equal _ Iter_spec). Qed.
Theorem Fold_spec f ini : Fold f ini h s = fold_left f (contents h s) ini.
Proof. unfold Fold. rewrite fold_loop_iter. exact (f_equal (fun l => fold_left f l ini) Iter_spec). Qed.
End Readers.

Theorem New_spec h h' r : New h = (h', r) -> heap_extends h h' /\ refines h' r (Ok []).
Proof. intros E. inversion E; subst. exact (building_done (literal_spec h [] eq_refl)). Qed.

Theorem Tail_spec h s h' r : valid h s -> Tail h s = (h', r) ->
  h' = h /\ refines h' r (spec_tail (contents h s)).
Proof.
  intros V E. unfold Tail in E. rewrite (empty_header _ _ V) in E.
  pose proof (contents_length V) as CL. pose proof (valid_len_cap V) as LC.
  pose proof (subslice_spec h s 1 (slen s - 1) (scap s - 1) V) as S.
  destruct (contents h s) as [|x t]; inversion E; subst; (split; [reflexivity|]); [reflexivity|].
  cbn in CL. destruct S as (V' & C'); try lia. eexists. split; [reflexivity|]. split; [exact V'|].
  etransitivity; [exact C'|]. apply firstn_all2. cbn. lia.
Qed.

Theorem PopLast_spec h s h' r : valid h s -> PopLast h s = (h', r) ->
  h' = h /\ refines h' r (spec_poplast (contents h s)).
Proof.
  intros V E. unfold PopLast in E. rewrite (empty_header _ _ V) in E.
  pose proof (contents_length V) as CL. pose proof (valid_len_cap V) as LC.
  pose proof (subslice_spec h s 0 (slen s - 1) (scap s) V) as S.
  destruct (contents h s) as [|x t]; inversion E; subst; (split; [reflexivity|]); [reflexivity|].
  destruct S as (V' & C'); try lia. eexists. split; [reflexivity|]. split; [exact V'|].
  etransitivity; [exact C'|]. rewrite removelast_firstn_len, CL, Nat.sub_1_r. reflexivity.
Qed.

Section Proofs.
Variable grow : nat -> nat -> nat.
Hypothesis grow_ok : forall c n, n <= grow c n.
Variable sorter : (val -> Z) -> list val -> list val.
Hypothesis sorter_perm : forall key l, Permutation l (sorter key l).

Section Range.
Context {St : Type}.
Variable body : nat -> val -> St -> heap -> slice -> St * heap * slice.
Variable emit : St -> nat -> val -> list val.
Variable next : St -> nat -> val -> St.
Variables (h0 : heap) (s : slice).
Hypothesis s_valid : valid h0 s.
Hypothesis Hbody : forall i e st h res l st1 h1 res1, i < slen s -> building h0 h res l ->
  body i e st h res = (st1, h1, res1) -> building h0 h1 res1 (l ++ emit st i e) /\ st1 = next st i e.

Lemma range_loop_spec : forall k i st h res l st' h' res',
  i + k = slen s -> building h0 h res l ->
  range_loop body k i st h res s = (st', h', res') ->
  building h0 h' res' (l ++ range_spec emit next st i (skipn i (contents h0 s))).
Proof.
  induction k as [|k IH]; intros i st h res l st' h' res' Hik B E; cbn [range_loop] in E.
  - inversion E; subst. rewrite skipn_all2 by (rewrite (contents_length s_valid); lia).
    cbn. rewrite app_nil_r. exact B.
  - assert (Hi : i < slen s) by lia.
    rewrite (get_extends i (proj1 B) s_valid Hi) in E.
    rewrite (skipn_nth_cons (contents h0 s) i vdef) by (rewrite (contents_length s_valid); lia).
    destruct (body i (nth i (contents h0 s) vdef) st h res) as [[st1 h1] res1] eqn:Bd.
    destruct (Hbody _ _ _ _ _ _ _ _ _ Hi B Bd) as (B1 & ->).
    cbn [range_spec]. rewrite app_assoc. apply (IH (S i) _ _ _ _ _ _ _ ltac:(lia) B1 E).
Qed.
Arguments range_loop_spec k i {st h res l st' h' res'}.

(** the loop as Map, Filter, Zip, Collect and Distinct are written: over the whole of s, the loop
    state dropped and the result wrapped in Ok (their bodies unfold to the [let] below) *)
Lemma range_loop_refines st h res h' r : building h0 h res [] ->
  (let '(_, h1, res1) := range_loop body (slen s) 0 st h res s in (h1, Ok res1)) = (h', r) ->
  heap_extends h0 h' /\ refines h' r (Ok (range_spec emit next st 0 (contents h0 s))).
Proof.
  intros B E. destruct (range_loop body (slen s) 0 st h res s) as [[st' h1] res1] eqn:R.
  inversion E; subst. exact (building_done (range_loop_spec (slen s) 0 eq_refl B R)).
Qed.
Lemma range_loop_from_nil st h' r :
  (let '(_, h1, res1) := range_loop body (slen s) 0 st h0 nilslice s in (h1, Ok res1)) = (h', r) ->
  heap_extends h0 h' /\ refines h' r (Ok (range_spec emit next st 0 (contents h0 s))).
Proof. apply range_loop_refines, building_nil. Qed.
End Range.

(** the two things a body does to the accumulator: append, or leave it *)
Lemma keep_appendN {St} (st : St) h0 h res l xs st1 h1 res1 : building h0 h res l ->
  keep st (appendN grow h res xs) = (st1, h1, res1) -> building h0 h1 res1 (l ++ xs) /\ st1 = st.
Proof.
  intros B E. unfold keep in E. destruct (appendN grow h res xs) as [h2 r2] eqn:A.
  inversion E; subst. split; [exact (building_append grow grow_ok B A)|reflexivity].
Qed.
Lemma skip_step {St} (st : St) h0 h res l st1 h1 res1 : building h0 h res l ->
  (st, h, res) = (st1, h1, res1) -> building h0 h1 res1 (l ++ []) /\ st1 = st.
Proof. intros B E. inversion E; subst. rewrite app_nil_r. auto. Qed.

Lemma range_spec_map (f : val -> val) i l :
  range_spec (fun (_ : unit) _ e => [f e]) (fun st _ _ => st) tt i l = map f l.
Proof. revert i; induction l; intros i; cbn; [reflexivity|]. f_equal. apply IHl. Qed.
Lemma range_spec_mapi (f : Z -> val -> val) i l :
  range_spec (fun (_ : unit) i e => [f (Z.of_nat i) e]) (fun st _ _ => st) tt i l = mapi_from f i l.
Proof. revert i; induction l; intros i; cbn; [reflexivity|]. f_equal. apply IHl. Qed.
Lemma range_spec_filter (p : val -> bool) i l :
  range_spec (fun (_ : unit) _ e => if p e then [e] else []) (fun st _ _ => st) tt i l = filter p l.
Proof. revert i; induction l; intros i; cbn; [reflexivity|]. destruct (p a); cbn; f_equal; apply IHl. Qed.
Lemma range_spec_flat_map (g : val -> list val) i l :
  range_spec (fun (_ : unit) _ e => g e) (fun st _ _ => st) tt i l = flat_map g l.
Proof. revert i; induction l; intros i; cbn; [reflexivity|]. f_equal. apply IHl. Qed.
Lemma range_spec_zip (l2 : list val) i l : i + length l <= length l2 ->
  range_spec (fun (_ : unit) i e => [VP e (nth i l2 vdef)]) (fun st _ _ => st) tt i l
  = map (fun ab => VP (fst ab) (snd ab)) (combine l (skipn i l2)).
Proof.
  revert i; induction l as [|a l IH]; intros i H; cbn in *; [reflexivity|].
  rewrite (skipn_nth_cons l2 i vdef) by lia. cbn. f_equal. apply IH. lia.
Qed.
Lemma range_spec_dedup seen i l :
  range_spec (fun (set : list val) _ e => if existsb (val_eqb e) set then [] else [e])
           (fun set _ e => if existsb (val_eqb e) set then set else e :: set) seen i l = dedup seen l.
Proof. revert seen i; induction l; intros seen i; cbn; [reflexivity|].
  destruct (existsb (val_eqb a) seen); cbn; [|f_equal]; apply IHl. Qed.

Theorem Map_spec f h s h' r : valid h s -> Map grow f h s = (h', r) ->
  heap_extends h h' /\ refines h' r (Ok (map f (contents h s))).
Proof.
  intros V E. rewrite <- (range_spec_map f 0). eapply range_loop_from_nil; [exact V| |exact E].
  intros i e st hh res l st1 h1 res1 _. apply keep_appendN.
Qed.

Theorem Mapi_spec f h s h' r : valid h s -> Mapi grow f h s = (h', r) ->
  heap_extends h h' /\ refines h' r (Ok (mapi_from f 0 (contents h s))).
Proof.
  intros V E. rewrite <- range_spec_mapi. eapply range_loop_from_nil; [exact V| |exact E].
  intros i e st hh res l st1 h1 res1 _. apply keep_appendN.
Qed.

Theorem Filter_spec p h s h' r : valid h s -> Filter grow p h s = (h', r) ->
  heap_extends h h' /\ refines h' r (Ok (filter p (contents h s))).
Proof.
  intros V E. rewrite <- (range_spec_filter p 0). eapply range_loop_from_nil; [exact V| |exact E].
  intros i e st hh res l st1 h1 res1 _. cbv beta. destruct (p e); [apply keep_appendN|apply skip_step].
Qed.

Theorem Zip_spec h s1 s2 h' r : valid h s1 -> valid h s2 -> Zip grow h s1 s2 = (h', r) ->
  heap_extends h h' /\ refines h' r (spec_zip (contents h s1) (contents h s2)).
Proof.
  intros V1 V2 E. unfold Zip in E. unfold spec_zip. rewrite !contents_length by assumption.
  destruct (slen s1 =? slen s2) eqn:L; cbn [negb] in *.
  2:{ inversion E; subst. split; [apply heap_extends_refl|reflexivity]. }
  apply Nat.eqb_eq in L.
  rewrite <- (range_spec_zip (contents h s2) 0) by (rewrite !contents_length by assumption; lia).
  eapply range_loop_from_nil; [exact V1| |exact E].
  intros i e st hh res l st1 h1 res1 Hi B. cbv beta.
  rewrite (get_extends i (proj1 B) V2) by lia. apply keep_appendN, B.
Qed.

Theorem Collect_spec f fs h s h' r : valid h s -> cb_ok (length h) h f fs -> Collect grow f h s = (h', r) ->
  heap_extends h h' /\ refines h' r (Ok (flat_map fs (contents h s))).
Proof.
  intros V CB E. rewrite <- (range_spec_flat_map fs 0). eapply range_loop_from_nil; [exact V| |exact E].
  intros i e st hh res l st1 h1 res1 _ B. cbv beta. destruct (f hh e) as [h2 one] eqn:Fe.
  destruct (CB _ _ _ _ (proj1 B) (proj1 (proj1 B)) Fe) as (X & Vo & <-).
  apply keep_appendN, (building_later B X).
Qed.

Theorem Distinct_spec h s h' r : valid h s -> Distinct grow h s = (h', r) ->
  heap_extends h h' /\ refines h' r (Ok (dedup [] (contents h s))).
Proof.
  intros V E. unfold Distinct in E. destruct (literal h []) as [h0 res0] eqn:Li. apply literal_spec in Li.
  rewrite <- (range_spec_dedup [] 0). eapply (range_loop_refines _ _ _ h s V); [|exact Li|exact E].
  intros i e set hh res l st1 h1 res1 _. cbv beta.
  destruct (existsb (val_eqb e) set); [apply skip_step|apply keep_appendN].
Qed.

Lemma copy_loop_spec h0 s : valid h0 s ->
  forall k i h res l h' r, i <= slen s -> building h0 h res l ->
  copy_loop grow k i h res s = (h', r) ->
  heap_extends h0 h' /\
  refines h' r (if i + k <=? slen s then Ok (l ++ firstn k (skipn i (contents h0 s))) else Panic PIndex).
Proof.
  intros V. induction k as [|k IH]; intros i h res l h' r Hi B E; cbn [copy_loop] in E.
  - inversion E; subst. rewrite Nat.add_0_r, (proj2 (Nat.leb_le _ _) Hi). cbn [firstn].
    rewrite app_nil_r. apply building_done, B.
  - destruct (i <? slen s) eqn:C.
    + apply Nat.ltb_lt in C. rewrite (get_extends i (proj1 B) V C) in E.
      destruct (append1 grow h res (nth i (contents h0 s) vdef)) as [h1 res1] eqn:A.
      apply (building_append grow grow_ok B) in A.
      rewrite Nat.add_succ_r, (skipn_nth_cons (contents h0 s) i vdef) by (rewrite (contents_length V); lia).
      pose proof (IH (S i) _ _ _ _ _ C A E) as R. rewrite <- app_assoc in R. exact R.
    + apply Nat.ltb_ge in C. inversion E; subst. rewrite (proj2 (Nat.leb_gt _ _)) by lia.
      split; [apply B|reflexivity].
Qed.
Arguments copy_loop_spec {h0 s} _ k i {h res l h' r}.

Theorem Take_spec h num s h' r : valid h s -> Take grow h num s = (h', r) ->
  heap_extends h h' /\ refines h' r (spec_take num (contents h s)).
Proof.
  intros V E. unfold spec_take. rewrite (contents_length V).
  replace (num <=? Z.of_nat (slen s))%Z with (Z.to_nat num <=? slen s)
    by (apply eq_iff_eq_true; rewrite Nat.leb_le, Z.leb_le; lia).
  exact (copy_loop_spec V _ 0 (Nat.le_0_l _) (building_nil h) E).
Qed.

Theorem Skip_spec h count s h' r : valid h s -> Skip grow h count s = (h', r) ->
  heap_extends h h' /\ refines h' r (spec_skip count (contents h s)).
Proof.
  intros V E. unfold Skip in E. unfold spec_skip. rewrite (contents_length V).
  destruct (Z.of_nat (slen s) <=? count)%Z eqn:C1.
  { inversion E; subst. apply building_done, building_nil. }
  destruct (count <? 0)%Z eqn:C2.
  { inversion E; subst. split; [apply heap_extends_refl|reflexivity]. }
  apply Z.leb_gt in C1. apply Z.ltb_ge in C2.
  pose proof (copy_loop_spec V _ (Z.to_nat count) ltac:(lia) (building_nil h) E) as R.
  rewrite (proj2 (Nat.leb_le _ _)), firstn_all2 in R
    by (rewrite ?skipn_length, ?(contents_length V); lia).
  exact R.
Qed.

Theorem PushLast_spec h x s h' r : valid h s -> PushLast grow h x s = (h', r) ->
  heap_extends h h' /\ refines h' r (Ok (contents h s ++ [x])).
Proof.
  intros V E. unfold PushLast in E.
  destruct (make0 h (slen s + 1)) as [h1 res] eqn:M. apply make0_spec in M.
  destruct (appendN grow h1 res (contents h1 s)) as [h2 res2] eqn:A.
  apply (building_append_arg grow grow_ok V M) in A.
  destruct (append1 grow h2 res2 x) as [h3 res3] eqn:A1.
  apply (building_append grow grow_ok A) in A1.
  inversion E; subst. apply building_done, A1.
Qed.

Theorem PushHead_spec h x s h' r : valid h s -> PushHead grow h x s = (h', r) ->
  heap_extends h h' /\ refines h' r (Ok (x :: contents h s)).
Proof.
  intros V E. unfold PushHead in E.
  destruct (literal h [x]) as [h1 ret] eqn:M. apply literal_spec in M.
  destruct (appendN grow h1 ret (contents h1 s)) as [h2 res2] eqn:A.
  apply (building_append_arg grow grow_ok V M) in A.
  inversion E; subst. apply building_done, A.
Qed.

Theorem Append_spec h s1 s2 h' r : valid h s1 -> valid h s2 -> Append grow h s1 s2 = (h', r) ->
  heap_extends h h' /\ refines h' r (Ok (contents h s1 ++ contents h s2)).
Proof.
  intros V1 V2 E. unfold Append in E.
  destruct (appendN grow h nilslice (contents h s1)) as [h1 res1] eqn:A1.
  apply (building_append_arg grow grow_ok V1 (building_nil h)) in A1.
  destruct (appendN grow h1 res1 (contents h1 s2)) as [h2 res2] eqn:A2.
  apply (building_append_arg grow grow_ok V2 A1) in A2.
  inversion E; subst. apply building_done, A2.
Qed.

Lemma concat_loop_spec h0 : forall (ss : list slice) h res l h' res',
  List.Forall (valid h0) ss -> building h0 h res l ->
  concat_loop grow ss h res = (h', res') -> building h0 h' res' (l ++ concat (map (contents h0) ss)).
Proof.
  induction ss as [|s ss IH]; intros h res l h' res' FA B E; cbn [concat_loop] in E.
  - inversion E; subst. cbn. rewrite app_nil_r. exact B.
  - inversion FA as [|? ? V FA']; subst.
    destruct (appendN grow h res (contents h s)) as [h1 res1] eqn:A.
    apply (building_append_arg grow grow_ok V B) in A.
    cbn. rewrite app_assoc. exact (IH _ _ _ _ _ FA' A E).
Qed.
Arguments concat_loop_spec {h0} ss {h res l h' res'}.

Theorem Concat_spec h ss h' r : List.Forall (valid h) ss -> Concat grow h ss = (h', r) ->
  heap_extends h h' /\ refines h' r (Ok (concat (map (contents h) ss))).
Proof.
  intros FA E. unfold Concat in E. destruct (concat_loop grow ss h nilslice) as [h1 res] eqn:L.
  inversion E; subst. exact (building_done (concat_loop_spec ss FA (building_nil h) L)).
Qed.

Lemma sorter_length key l : length (sorter key l) = length l.
Proof. symmetry. apply Permutation_length, sorter_perm. Qed.
Lemma sorter_nil key : sorter key [] = [].
Proof. apply Permutation_nil, sorter_perm. Qed.

Lemma sort_inplace_nil key h s : contents h s = [] -> sort_inplace sorter key h s = h.
Proof.
  intros C. unfold sort_inplace. destruct (sarr s); [|reflexivity].
  rewrite C, sorter_nil, splice_nil. apply upd_getarr.
Qed.
(** sorting the result under construction writes into its own array only *)
Lemma sort_inplace_spec key h0 h res l : building h0 h res l ->
  building h0 (sort_inplace sorter key h res) res (sorter key l).
Proof.
  intros (X & F & V & <-). unfold sort_inplace. pose proof (contents_length V) as CL.
  pose proof (sorter_length key (contents h res)) as SL.
  unfold building, valid, fresh in *. destruct (sarr res) as [a|] eqn:Sa.
  - destruct V as (La & Lc & Ll).
    split; [eapply frame_trans; [exact X|apply frame_upd, F]|]. split; [exact F|]. split.
    + rewrite upd_length, getarr_upd_same, splice_length by lia. lia.
    + unfold contents at 1. rewrite Sa, getarr_upd_same by exact La.
      rewrite <- CL, <- SL. apply splice_window0. lia.
  - split; [exact X|]. split; [exact I|]. split; [exact V|].
    unfold contents. rewrite Sa. symmetry. apply sorter_nil.
Qed.

Theorem SortBy_spec proj h s h' r : valid h s -> SortBy grow sorter proj h s = (h', r) ->
  heap_extends h h' /\ refines h' r (Ok (sorter proj (contents h s))).
Proof.
  intros V E. unfold SortBy in E.
  destruct (subslice_spec h s 0 0 0 V) as (V0 & C0); try lia. cbn [Nat.add firstn] in V0, C0.
  destruct (appendN grow h _ (contents h s)) as [h1 res] eqn:A. inversion E; subst; clear E.
  destruct (contents h s) as [|x xs].
  - (* nothing is appended to s[:0:0] and nothing sorted: the heap is as it was *)
    rewrite appendN_nil in A by exact V0. inversion A; subst.
    rewrite sort_inplace_nil, sorter_nil by exact C0.
    split; [apply heap_extends_refl|]. eexists. auto.
  - (* s[:0:0] has no room: append allocates *)
    apply (appendN_spec grow grow_ok (h0 := h)) in A; [|apply heap_extends_refl|exact V0|cbn; lia].
    rewrite C0 in A. apply building_done, sort_inplace_spec, A.
Qed.

End Proofs.

Lemma val_eqb_eq x y : val_eqb x y = true <-> x = y.
Proof.
  revert y; induction x as [z|a IHa b IHb]; intros [w|c d]; cbn; try (split; discriminate).
  - rewrite Z.eqb_eq. split; congruence.
  - rewrite andb_true_iff, IHa, IHb. split; [intros (-> & ->); reflexivity|intros E; inversion E; auto].
Qed.
Lemma val_eqb_spec x y : reflect (x = y) (val_eqb x y).
Proof. apply iff_reflect. symmetry. apply val_eqb_eq. Qed.
Lemma existsb_val_eqb x l : existsb (val_eqb x) l = true <-> In x l.
Proof. rewrite existsb_exists. split.
  - intros (y & Hy & E). apply val_eqb_eq in E. subst. exact Hy.
  - intros H. exists x. split; [exact H|]. apply val_eqb_eq. reflexivity. Qed.

(** Distinct keeps exactly the first occurrences, in order *)
Lemma dedup_in seen l x : In x (dedup seen l) <-> In x l /\ ~ In x seen.
Proof.
  revert seen; induction l as [|y l IH]; intros seen; cbn; [tauto|].
  destruct (existsb (val_eqb y) seen) eqn:E; cbn; rewrite IH; cbn.
  - apply existsb_val_eqb in E. split; [tauto|]. intros ([->|H] & N); tauto.
  - assert (N : ~ In y seen) by (rewrite <- existsb_val_eqb, E; discriminate).
    destruct (val_eqb_spec y x) as [->|Q]; tauto.
Qed.
Lemma dedup_nodup seen l : NoDup (dedup seen l).
Proof.
  revert seen; induction l as [|y l IH]; intros seen; cbn; [constructor|].
  destruct (existsb (val_eqb y) seen); [apply IH|]. constructor; [|apply IH].
  rewrite dedup_in. cbn. tauto.
Qed.
Lemma dedup_seen_equiv s1 s2 l : (forall x, In x s1 <-> In x s2) -> dedup s1 l = dedup s2 l.
Proof.
  revert s1 s2; induction l as [|y l IH]; intros s1 s2 H; cbn; [reflexivity|].
  assert (E : existsb (val_eqb y) s1 = existsb (val_eqb y) s2)
    by (apply eq_iff_eq_true; rewrite !existsb_val_eqb; apply H).
  rewrite E. destruct (existsb (val_eqb y) s2); [apply IH, H|]. f_equal. apply IH.
  intros x; cbn. rewrite H. tauto.
Qed.
(** the element after a prefix is kept iff it does not occur in the prefix *)
Theorem dedup_snoc l x :
  dedup [] (l ++ [x]) = if existsb (val_eqb x) l then dedup [] l else dedup [] l ++ [x].
Proof.
  assert (G : forall seen, dedup seen (l ++ [x]) =
            if existsb (val_eqb x) l || existsb (val_eqb x) seen then dedup seen l else dedup seen l ++ [x]).
  { induction l as [|y l IH]; intros seen; cbn [app dedup existsb].
    - reflexivity.
    - rewrite !IH. destruct (existsb (val_eqb y) seen) eqn:E.
      + (* y is dropped; if x = y then x has been seen as well *)
        destruct (val_eqb_spec x y) as [->|]; cbn [orb]; [rewrite E, orb_true_r|]; reflexivity.
      + cbn [existsb].
        destruct (val_eqb x y), (existsb (val_eqb x) l), (existsb (val_eqb x) seen); reflexivity. }
  rewrite G, orb_false_r. reflexivity.
Qed.

Lemma mapi_from_nth f i l k d : k < length l -> nth k (mapi_from f i l) d = f (Z.of_nat (i + k)) (nth k l vdef).
Proof. revert i k; induction l as [|x l IH]; intros i k H; cbn in *; [lia|].
  destruct k; [rewrite Nat.add_0_r; reflexivity|]. rewrite IH by lia. f_equal. f_equal. lia. Qed.
Lemma mapi_from_length f i l : length (mapi_from f i l) = length l.
Proof. revert i; induction l; intros i; cbn; auto. Qed.

Lemma insert_by_perm key x l : Permutation (x :: l) (insert_by key x l).
Proof. induction l as [|y l IH]; cbn; [reflexivity|].
  destruct (key x <=? key y)%Z; [reflexivity|]. rewrite perm_swap. constructor. exact IH. Qed.
Lemma isort_by_perm key l : Permutation l (isort_by key l).
Proof. induction l as [|x l IH]; cbn; [constructor|].
  etransitivity; [apply perm_skip, IH|apply insert_by_perm]. Qed.
Lemma insert_by_sorted key x l : sorted_by key l -> sorted_by key (insert_by key x l).
Proof.
  unfold sorted_by. induction l as [|y l IH]; intros S; cbn; [repeat constructor|].
  destruct (key x <=? key y)%Z eqn:C.
  - constructor; [exact S|]. constructor. lia.
  - apply Z.leb_gt in C. inversion S as [|? ? S' H]; subst. constructor; [apply IH, S'|].
    destruct l as [|z l]; cbn; [constructor; lia|].
    destruct (key x <=? key z)%Z; constructor; [lia|]. inversion H; assumption.
Qed.
Lemma isort_by_sorted key l : sorted_by key (isort_by key l).
Proof. induction l as [|x l IH]; cbn; [constructor|]. apply insert_by_sorted, IH. Qed.

(** an ascending permutation is unique where the key tells the elements apart (as on ints):
    there Sort's result does not depend on which sorting permutation slices.SortFunc picks *)
Lemma sorted_by_head_min {key x l} : sorted_by key (x :: l) -> forall {y}, In y l -> (key x <= key y)%Z.
Proof.
  intros S. apply Sorted_extends in S; [|intros a b c; lia]. rewrite Forall_forall in S. exact S.
Qed.
Theorem sorted_perm_unique key (l1 l2 : list val) :
  (forall x y, In x l1 -> In y l1 -> key x = key y -> x = y) ->
  Permutation l1 l2 -> sorted_by key l1 -> sorted_by key l2 -> l1 = l2.
Proof.
  revert l2; induction l1 as [|x l1 IH]; intros l2 Inj P S1 S2.
  - apply Permutation_nil in P. auto.
  - destruct l2 as [|y l2]; [apply Permutation_sym, Permutation_nil in P; discriminate|].
    assert (x = y).
    { assert (A : In x (y :: l2)) by (eapply Permutation_in; [exact P|left; reflexivity]).
      assert (B : In y (x :: l1)) by (eapply Permutation_in; [symmetry; exact P|left; reflexivity]).
      destruct A as [A|A]; [congruence|]. destruct B as [B|B]; [congruence|].
      pose proof (sorted_by_head_min S1 B). pose proof (sorted_by_head_min S2 A).
      apply Inj; [left; reflexivity|right; exact B|lia]. }
    subst. f_equal. apply IH.
    + intros a b Ha Hb. apply Inj; right; assumption.
    + eapply Permutation_cons_inv. exact P.
    + inversion S1; assumption.
    + inversion S2; assumption.
Qed.

Lemma sorted_byb_ok key l : sorted_byb key l = true <-> sorted_by key l.
Proof.
  unfold sorted_by. induction l as [|x l IH]; cbn [sorted_byb]; [split; [constructor|reflexivity]|].
  destruct l as [|y l].
  - split; [repeat constructor|reflexivity].
  - rewrite andb_true_iff, IH, Z.leb_le. split.
    + intros (A & B). constructor; [exact B|constructor; exact A].
    + intros S. inversion S as [|? ? S' H]; subst. inversion H; subst. tauto.
Qed.
Lemma remove_one_perm x l l' : remove_one x l = Some l' -> Permutation l (x :: l').
Proof.
  revert l'; induction l as [|y l IH]; intros l' E; cbn in E; [discriminate|].
  destruct (val_eqb_spec x y) as [->|_]; [inversion E; subst; reflexivity|].
  destruct (remove_one x l) as [t|]; [|discriminate]. inversion E; subst.
  rewrite (IH t eq_refl). apply perm_swap.
Qed.
Lemma remove_one_none x l : remove_one x l = None -> ~ In x l.
Proof.
  induction l as [|y l IH]; cbn; [tauto|]. destruct (val_eqb_spec x y) as [|Q]; [discriminate|].
  destruct (remove_one x l); [discriminate|]. intros _ [E|H]; [congruence|apply IH; auto].
Qed.
Lemma permb_ok l1 l2 : permb l1 l2 = true <-> Permutation l1 l2.
Proof.
  revert l2; induction l1 as [|x l1 IH]; intros l2; cbn [permb].
  - destruct l2; split; auto; try discriminate. intros P. apply Permutation_nil in P. discriminate.
  - destruct (remove_one x l2) as [l2'|] eqn:R.
    + rewrite IH. apply remove_one_perm in R. split.
      * intros P. rewrite R. constructor. exact P.
      * intros P. rewrite R in P. eapply Permutation_cons_inv. exact P.
    + split; [discriminate|]. intros P. apply remove_one_none in R. exfalso. apply R.
      eapply Permutation_in; [exact P|left; reflexivity].
Qed.
Theorem sorted_permb_ok key inp out :
  sorted_permb key inp out = true <-> sorted_by key out /\ Permutation inp out.
Proof. unfold sorted_permb. rewrite andb_true_iff, sorted_byb_ok, permb_ok. tauto. Qed.

Section SortedSorter.
Variable grow : nat -> nat -> nat.
Hypothesis grow_ok : forall c n, n <= grow c n.
Variable sorter : (val -> Z) -> list val -> list val.
Hypothesis sorter_perm : forall key l, Permutation l (sorter key l).
Hypothesis sorter_sorted : forall key l, sorted_by key (sorter key l).

Theorem SortBy_sorted_perm proj h s h' r : valid h s -> SortBy grow sorter proj h s = (h', r) ->
  heap_extends h h' /\
  exists res, r = Ok res /\ valid h' res /\
              sorted_by proj (contents h' res) /\ Permutation (contents h s) (contents h' res).
Proof.
  intros V E. destruct (SortBy_spec grow grow_ok sorter sorter_perm proj h s h' r V E) as (X & res & -> & Vr & C).
  split; [exact X|]. exists res. rewrite C. auto.
Qed.
Theorem Sort_sorted_perm h s h' r : valid h s -> Sort grow sorter h s = (h', r) ->
  heap_extends h h' /\
  exists res, r = Ok res /\ valid h' res /\
              sorted_by vkey (contents h' res) /\ Permutation (contents h s) (contents h' res).
Proof. apply SortBy_sorted_perm. Qed.

(** on ints the result is THE ascending rearrangement, whatever permutation SortFunc picks *)
Theorem Sort_ints_unique h s h' r zs : valid h s -> contents h s = map VI zs ->
  Sort grow sorter h s = (h', r) ->
  exists res, r = Ok res /\ contents h' res = isort_by vkey (map VI zs).
Proof.
  intros V Cz E. destruct (Sort_sorted_perm h s h' r V E) as (_ & res & -> & _ & S & P).
  exists res. split; [reflexivity|]. rewrite Cz in P. apply (sorted_perm_unique vkey).
  - intros x y Hx Hy. apply (Permutation_in _ (Permutation_sym P)), in_map_iff in Hx, Hy.
    destruct Hx as (a & <- & _), Hy as (b & <- & _). cbn. congruence.
  - etransitivity; [symmetry; exact P|apply isort_by_perm].
  - exact S.
  - apply isort_by_sorted.
Qed.
End SortedSorter.
