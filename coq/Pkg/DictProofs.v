(** C14 — the modelled dict (Dict.v) refines a finite map, over all operation histories and
    for every enumeration order. *)
From Coq Require Import List Arith Bool Permutation.
From FoVerif Require Import Pkg.Buf Pkg.BufProofs Pkg.Dict.
Import ListNotations.

Lemma upd_app_last : forall {A} (l : list A) a x, upd (l ++ [a]) (List.length l) x = l ++ [x].
Proof. induction l as [|b l IH]; intros; cbn; [reflexivity|]. f_equal. apply IH. Qed.

Lemma Forall2_upd : forall {A B} (R : A -> B -> Prop) l1 l2 d x y,
  Forall2 R l1 l2 -> R x y -> Forall2 R (upd l1 d x) (upd l2 d y).
Proof.
  intros A B R l1 l2 d x y H. revert d. induction H as [|a b l1 l2 Hab H IH]; intros d Hxy.
  - destruct d; constructor.
  - destruct d; cbn; constructor; auto.
Qed.

Lemma Forall2_nth_error : forall {A B} (R : A -> B -> Prop) l1 l2 d,
  Forall2 R l1 l2 ->
  match nth_error l1 d, nth_error l2 d with
  | Some a, Some b => R a b
  | None, None => True
  | _, _ => False
  end.
Proof.
  intros A B R l1 l2 d H. revert d.
  induction H as [|a b l1 l2 Hab H IH]; intro d; destruct d; cbn; auto. apply IH.
Qed.

Lemma Forall2_same_length : forall {A B} (R : A -> B -> Prop) l1 l2,
  Forall2 R l1 l2 -> List.length l1 = List.length l2.
Proof. intros A B R l1 l2 H. induction H; cbn; congruence. Qed.

Section DictProofs.
  Variable K V : Type.
  Variable keqb : K -> K -> bool.
  Variable vzero : V.
  Variable enum : nat -> list (K * V) -> list (K * V).
  Hypothesis keqb_spec : forall a b, keqb a b = true <-> a = b.
  Hypothesis enum_perm : forall i l, Permutation (enum i l) l.

  Notation gomap := (gomap K V).
  Notation m_get := (m_get K V keqb).
  Notation m_set := (m_set K V keqb).
  Notation fmap := (fmap K V).
  Notation f_add := (f_add K V keqb).
  Notation last_val := (last_val K V keqb).
  Notation Add := (Add K V keqb).
  Notation step := (step K V keqb vzero enum).
  Notation run := (run K V keqb vzero enum).
  Notation spec_step := (spec_step K V keqb).
  Notation res_ok := (res_ok K V vzero).
  Notation trace_ok := (trace_ok K V keqb vzero).

  Lemma keqb_reflect : forall a b, reflect (a = b) (keqb a b).
  Proof. intros a b. apply iff_reflect. symmetry. apply keqb_spec. Qed.

  (** * Go map as an association list *)

  Lemma m_get_set : forall m k v k',
    m_get (m_set m k v) k' = if keqb k' k then Some v else m_get m k'.
  Proof.
    induction m as [|[k0 v0] m IH]; intros k v k'; cbn; [reflexivity|].
    destruct (keqb_reflect k k0) as [<-|N]; cbn; [destruct (keqb k' k); reflexivity|].
    rewrite IH. destruct (keqb_reflect k' k0) as [->|]; [|reflexivity].
    destruct (keqb_reflect k0 k); [congruence|reflexivity].
  Qed.

  Lemma m_get_keys : forall m k, In k (map fst m) <-> m_get m k <> None.
  Proof.
    induction m as [|[k0 v0] m IH]; intro k; cbn; [split; [intros []|congruence]|].
    destruct (keqb_reflect k k0) as [->|N]; [split; [discriminate|auto]|].
    rewrite <- IH. split; [intros [?|?]; [congruence|assumption]|auto].
  Qed.

  Lemma m_set_keys : forall m k v k',
    In k' (map fst (m_set m k v)) <-> k' = k \/ In k' (map fst m).
  Proof.
    intros m k v k'. rewrite !m_get_keys, m_get_set.
    destruct (keqb_reflect k' k); split; auto; [discriminate|intros [?|?]; [contradiction|assumption]].
  Qed.

  Lemma m_set_nodup : forall m k v, NoDup (map fst m) -> NoDup (map fst (m_set m k v)).
  Proof.
    induction m as [|[k0 v0] m IH]; intros k v H; cbn; [constructor; [intros []|constructor]|].
    inversion H as [|? ? Hn Hd]; subst. destruct (keqb_reflect k k0) as [<-|N]; cbn; constructor; auto.
    rewrite m_set_keys. intros [E|E]; [congruence|contradiction].
  Qed.

  Lemma m_get_in : forall m k v, NoDup (map fst m) -> (In (k, v) m <-> m_get m k = Some v).
  Proof.
    induction m as [|[k0 v0] m IH]; intros k v H; cbn; [split; [intros []|discriminate]|].
    inversion H as [|? ? Hn Hd]; subst. destruct (keqb_reflect k k0) as [->|N].
    - split; [|intro E; left; congruence].
      intros [E|Hin]; [congruence|]. exfalso. apply Hn. apply (in_map fst) in Hin. exact Hin.
    - rewrite <- IH by assumption. split; [intros [E|Hin]; [congruence|assumption]|auto].
  Qed.

  Definition rel (m : gomap) (f : fmap) : Prop :=
    NoDup (map fst m) /\ forall k, m_get m k = f k.

  Definition hrel (h : heap K V) (sh : sheap K V) : Prop := Forall2 rel h sh.

  Lemma rel_set : forall m f k v, rel m f -> rel (m_set m k v) (f_add f k v).
  Proof.
    intros m f k v [Hd Hg]. split.
    - apply m_set_nodup. exact Hd.
    - intro k'. rewrite m_get_set. unfold Dict.f_add. rewrite Hg. reflexivity.
  Qed.

  Lemma hrel_add : forall h sh d k v, hrel h sh -> hrel (Add h d k v) (spec_step sh (OAdd K V d k v)).
  Proof.
    intros h sh d k v H. unfold Dict.Add. cbn [Dict.spec_step].
    pose proof (Forall2_nth_error rel h sh d H) as N.
    destruct (nth_error h d) as [m|], (nth_error sh d) as [f|]; try contradiction; [|exact H].
    apply Forall2_upd; [exact H|]. apply rel_set. exact N.
  Qed.

  Lemma hrel_snoc : forall h sh m f, hrel h sh -> rel m f -> hrel (h ++ [m]) (sh ++ [f]).
  Proof. intros h sh m f H R. apply Forall2_app; [exact H|]. constructor; [exact R|constructor]. Qed.

  (** ToDict: the loop of Adds works on the fresh dictionary, the last one of the heap, and
      leaves there the last value of every key *)
  Lemma fold_add_last : forall ss h m,
    fold_left (fun hh kv => Add hh (List.length h) (fst kv) (snd kv)) ss (h ++ [m]) =
    h ++ [fold_left (fun m kv => m_set m (fst kv) (snd kv)) ss m].
  Proof.
    induction ss as [|[k v] ss IH]; intros h m; cbn [fold_left fst snd]; [reflexivity|].
    unfold Dict.Add at 2. rewrite nth_error_app2, Nat.sub_diag by apply le_n. cbn [nth_error].
    rewrite upd_app_last. apply IH.
  Qed.

  Lemma rel_fold_set : forall ss m f, rel m f ->
    rel (fold_left (fun m kv => m_set m (fst kv) (snd kv)) ss m)
        (fun k => match last_val ss k with Some v => Some v | None => f k end).
  Proof.
    induction ss as [|[k0 v0] ss IH]; intros m f R; cbn [fold_left fst snd]; [exact R|].
    destruct (IH _ _ (rel_set m f k0 v0 R)) as [Hd Hg]. split; [exact Hd|].
    intro k. rewrite Hg. cbn [Dict.last_val]. unfold Dict.f_add.
    destruct (last_val ss k), (keqb k k0); reflexivity.
  Qed.

  Lemma hrel_todict : forall h sh ss, hrel h sh ->
    hrel (fst (ToDict K V keqb h ss)) (sh ++ [last_val ss]) /\
    snd (ToDict K V keqb h ss) = List.length sh.
  Proof.
    intros h sh ss H. unfold Dict.ToDict, Dict.New. cbn [fst snd]. split; [|apply (Forall2_same_length _ _ _ H)].
    rewrite fold_add_last. apply hrel_snoc; [exact H|].
    destruct (rel_fold_set ss [] (f_empty K V)) as [Hd Hg]; [split; [constructor|reflexivity]|].
    split; [exact Hd|]. intro k. rewrite Hg. destruct (last_val ss k); reflexivity.
  Qed.

  Lemma last_val_snoc : forall ss k v k',
    last_val (ss ++ [(k, v)]) k' = if keqb k' k then Some v else last_val ss k'.
  Proof.
    induction ss as [|[k0 v0] ss IH]; intros k v k'.
    - cbn. destruct (keqb k' k); reflexivity.
    - cbn [app Dict.last_val]. rewrite IH. destruct (keqb k' k); [reflexivity|].
      destruct (last_val ss k'); reflexivity.
  Qed.

  Lemma last_val_none : forall ss k, last_val ss k = None <-> ~ In k (map fst ss).
  Proof.
    induction ss as [|[k0 v0] ss IH]; intro k; cbn; [intuition|].
    destruct (last_val ss k) eqn:E.
    - split; [discriminate|]. intro H. exfalso.
      assert (N : ~ In k (map fst ss)) by (intro; apply H; right; assumption).
      apply IH in N. congruence.
    - destruct (keqb_reflect k k0) as [->|N]; [split; [discriminate|]; intro H; exfalso; apply H; left; reflexivity|].
      split; [|reflexivity]. intros _ [H|H]; [congruence|]. apply (proj1 (IH k) E). exact H.
  Qed.

  Theorem last_val_is_last : forall ss k v,
    (forall k', last_val (ss ++ [(k, v)]) k' = if keqb k' k then Some v else last_val ss k') /\
    (last_val ss k = None <-> ~ In k (map fst ss)).
  Proof. intros. split; [intro; apply last_val_snoc|apply last_val_none]. Qed.

  Lemma enum_lists : forall i m f, rel m f ->
    NoDup (map fst (enum i m)) /\ forall k v, In (k, v) (enum i m) <-> f k = Some v.
  Proof.
    intros i m f [Hd Hg]. split.
    - eapply Permutation_NoDup; [|exact Hd]. apply Permutation_map, Permutation_sym, enum_perm.
    - intros k v. rewrite <- Hg, <- (m_get_in m k v Hd).
      split; apply Permutation_in; [|apply Permutation_sym]; apply enum_perm.
  Qed.

  Lemma with_map_ok : forall h sh d (g : gomap -> res K V) (spec : fmap -> Prop),
    hrel h sh -> (forall m f, rel m f -> with_map K V h d g = g m -> spec f) ->
    match nth_error sh d with
    | Some f => spec f
    | None => with_map K V h d g = RInvalid K V
    end.
  Proof.
    intros h sh d g spec H Hs. unfold Dict.with_map in *. pose proof (Forall2_nth_error rel h sh d H) as N.
    destruct (nth_error h d), (nth_error sh d); try contradiction; [|reflexivity]. eapply Hs; eauto.
  Qed.

  Lemma step_refines : forall i h sh o, hrel h sh ->
    res_ok sh o (snd (step i h o)) /\ hrel (fst (step i h o)) (spec_step sh o).
  Proof.
    intros i h sh o H.
    destruct o as [|d k v|d k|d k|d k|d|d|d|ss]; cbn [Dict.step Dict.spec_step Dict.res_ok fst snd].
    (* the six reads leave the heap as it is; their answers are computed from a map [m] related to
       the finite map [f] at [d], or are RInvalid on both sides (with_map_ok) *)
    3-8: (split; [apply with_map_ok; [exact H|]; intros m f R ->; pose proof R as [Hd Hg]|exact H]).
    - (* New *) unfold Dict.New. cbn [fst snd]. rewrite (Forall2_same_length _ _ _ H). split; [reflexivity|].
      apply hrel_snoc; [exact H|]. split; [constructor|reflexivity].
    - (* Add *) split; [|exact (hrel_add h sh _ _ _ H)].
      apply with_map_ok; [exact H|]. intros m f _ ->. reflexivity.
    - (* ContainsKey *) unfold Dict.ContainsKey. rewrite Hg. reflexivity.
    - (* TryFind *) unfold Dict.TryFind. rewrite Hg. destruct (f k); reflexivity.
    - (* Item *) unfold Dict.Item. rewrite Hg. reflexivity.
    - (* KVs *) exists (enum i m). split; [reflexivity|]. apply enum_lists, R.
    - (* Keys *) exists (map fst (enum i m)). split; [reflexivity|]. split; [apply (enum_lists i m f R)|].
      intro k. rewrite <- Hg, <- m_get_keys.
      split; apply Permutation_in, Permutation_map; [|apply Permutation_sym]; apply enum_perm.
    - (* Values *) exists (enum i m). split; [reflexivity|]. apply enum_lists, R.
    - (* ToDict *)
      destruct (hrel_todict h sh ss H) as [H1 H2].
      destruct (ToDict K V keqb h ss) as [h1 d] eqn:E. cbn [fst snd] in *. split; [congruence|exact H1].
  Qed.

  Lemma run_refines : forall ops i h sh, hrel h sh -> trace_ok sh ops (snd (run i h ops)).
  Proof.
    induction ops as [|o ops IH]; intros i h sh H; cbn [Dict.run Dict.trace_ok].
    - exact I.
    - destruct (step_refines i h sh o H) as [R H1].
      destruct (step i h o) as [h1 x] eqn:E. cbn [fst snd] in *.
      specialize (IH (S i) h1 (spec_step sh o) H1).
      destruct (run (S i) h1 ops) as [h2 xs]. cbn [snd] in *. split; assumption.
  Qed.

  Theorem dict_refines_map : forall ops, trace_ok [] ops (snd (run 0 [] ops)).
  Proof. intro ops. apply run_refines. constructor. Qed.
End DictProofs.

(** the oracle's instance satisfies the hypotheses *)
From Coq Require Import ZArith Ascii.
Lemma bytes_eqb_spec : forall a b, bytes_eqb a b = true <-> a = b.
Proof. apply (list_eqb_eq Ascii.eqb); [apply Ascii.eqb_eq|intros [|] [|]; reflexivity]. Qed.

Lemma enum_sz_perm : forall r i l, Permutation (enum_sz r i l) l.
Proof.
  intros r i l. unfold enum_sz. destruct r; [|apply Permutation_refl].
  apply Permutation_sym. apply Permutation_rev.
Qed.
