(** C14 — proofs about the model of pkg/strings (Strings.v): every wrapper meets a specification
    in which subject and argument play different parts ([s = p ++ t], [join sep] of the pieces gives
    the subject back, no piece [contains] the separator), so that an argument swap in a wrapper
    falsifies it. *)
From Coq Require Import List Ascii Arith ZArith Bool Lia.
From FoVerif Require Import Pkg.Buf Pkg.BufProofs Pkg.Strings.
Import ListNotations.

Lemma beq_eq : forall a b, beq a b = true <-> a = b.
Proof. apply (list_eqb_eq Ascii.eqb); [apply Ascii.eqb_eq|intros [|] [|]; reflexivity]. Qed.

Lemma beq_refl : forall a, beq a a = true.
Proof. intro a. apply beq_eq. reflexivity. Qed.

Lemma go_has_prefix_skipn : forall s p, go_has_prefix s p = true -> s = p ++ skipn (List.length p) s.
Proof.
  intros s p. unfold go_has_prefix. rewrite andb_true_iff, beq_eq. intros [_ H].
  rewrite <- (firstn_skipn (List.length p) s) at 1. rewrite H. reflexivity.
Qed.

Lemma go_has_prefix_spec : forall s p, go_has_prefix s p = true <-> exists t, s = p ++ t.
Proof.
  intros s p. split; [eexists; apply go_has_prefix_skipn; assumption|]. intros [t ->].
  unfold go_has_prefix. rewrite andb_true_iff, Nat.leb_le, beq_eq, app_length. split; [lia|].
  rewrite firstn_app, firstn_all, Nat.sub_diag. apply app_nil_r.
Qed.

Theorem has_prefix_spec : forall p s, HasPrefix p s = true <-> exists t, s = p ++ t.
Proof. intros p s. apply go_has_prefix_spec. Qed.

Lemma go_has_suffix_spec : forall s x, go_has_suffix s x = true <-> exists t, s = t ++ x.
Proof.
  intros s x. unfold go_has_suffix. rewrite andb_true_iff, Nat.leb_le, beq_eq. split.
  - intros [_ H]. exists (firstn (List.length s - List.length x) s).
    rewrite <- H at 2. symmetry. apply firstn_skipn.
  - intros [t ->]. rewrite app_length, Nat.add_sub, skipn_app, skipn_all, Nat.sub_diag.
    split; [lia|reflexivity].
Qed.

Theorem has_suffix_spec : forall x s, HasSuffix x s = true <-> exists t, s = t ++ x.
Proof. intros x s. apply go_has_suffix_spec. Qed.

Theorem trim_suffix_removes : forall x t, TrimSuffix x (t ++ x) = t.
Proof.
  intros x t. unfold TrimSuffix, go_trim_suffix.
  rewrite (proj2 (go_has_suffix_spec _ _)) by eauto.
  rewrite app_length, Nat.add_sub, firstn_app, firstn_all, Nat.sub_diag. apply app_nil_r.
Qed.

Theorem trim_suffix_keeps : forall x s, (forall t, s <> t ++ x) -> TrimSuffix x s = s.
Proof.
  intros x s H. unfold TrimSuffix, go_trim_suffix.
  destruct (go_has_suffix s x) eqn:E; [|reflexivity].
  apply go_has_suffix_spec in E. destruct E as [t E]. exfalso. apply (H t E).
Qed.

Lemma concat_loop_join : forall sep l first buf,
  concat_loop sep first l buf =
  buf ++ (if first then join sep l
          else match l with [] => [] | _ => sep ++ join sep l end).
Proof.
  induction l as [|x r IH]; intros first buf.
  - cbn. destruct first; rewrite app_nil_r; reflexivity.
  - cbn [concat_loop]. rewrite IH. unfold bb_write.
    destruct first; destruct r as [|y r']; cbn [join]; rewrite <- ?app_assoc, ?app_nil_r; reflexivity.
Qed.

Theorem concat_is_join : forall sep l, Concat sep l = join sep l.
Proof.
  intros. unfold Concat, bb_string, bb_new. rewrite concat_loop_join. reflexivity.
Qed.

Lemma join_cons : forall (sep a : bytes) l, l <> [] -> join sep (a :: l) = a ++ sep ++ join sep l.
Proof. intros sep a [|x l] H; [congruence|reflexivity]. Qed.

Lemma join_split : forall (sep : bytes) l1 x r, exists pre,
  join sep (l1 ++ x :: r) = pre ++ x ++ match r with [] => [] | _ => sep ++ join sep r end.
Proof.
  intros sep l1 x r. induction l1 as [|a l1 [pre IH]]; cbn [app].
  - exists []. destruct r; cbn [join app]; [rewrite app_nil_r|]; reflexivity.
  - exists (a ++ sep ++ pre). rewrite join_cons, IH, <- !app_assoc by (destruct l1; discriminate).
    reflexivity.
Qed.

Lemma join_two : forall (sep : bytes) l1 x l2 y l3, exists pre mid post,
  join sep (l1 ++ x :: l2 ++ y :: l3) = pre ++ x ++ mid ++ y ++ post.
Proof.
  intros sep l1 x l2 y l3. destruct (join_split sep l1 x (l2 ++ y :: l3)) as [pre ->].
  destruct (join_split sep l2 y l3) as [mid E].
  (* what follows x is not empty: it holds y *)
  destruct (l2 ++ y :: l3) eqn:N; [exfalso; eapply app_cons_not_nil; symmetry; exact N|].
  rewrite E. exists pre, (sep ++ mid). eexists. rewrite <- !app_assoc. reflexivity.
Qed.

Lemma go_has_prefix_nil : forall s, go_has_prefix s [] = true.
Proof. intro s. apply go_has_prefix_spec. exists s. reflexivity. Qed.

Lemma go_cut_eq : forall s sep, go_cut s sep =
  if go_has_prefix s sep then Some ([], skipn (List.length sep) s)
  else match s with
       | [] => None
       | c :: s' => match go_cut s' sep with Some (a, b) => Some (c :: a, b) | None => None end
       end.
Proof. destruct s; reflexivity. Qed.

Lemma not_contains_nil : forall sep, sep <> [] -> ~ contains sep [].
Proof. intros sep H [x [y E]]. destruct x; destruct sep; cbn in E; congruence. Qed.

Lemma contains_inv : forall sep s, contains sep s ->
  go_has_prefix s sep = true \/ match s with [] => False | _ :: s' => contains sep s' end.
Proof.
  intros sep s [[|c x] [y ->]]; [left; apply go_has_prefix_spec; exists y|right; exists x, y]; reflexivity.
Qed.

Lemma go_cut_spec : forall sep s,
  match go_cut s sep with
  | Some (a, b) => s = a ++ sep ++ b /\ (sep <> [] -> ~ contains sep a)
  | None => ~ contains sep s
  end.
Proof.
  intros sep. induction s as [|c s IH]; rewrite go_cut_eq; destruct (go_has_prefix _ sep) eqn:E.
  (* the separator is a prefix: cut here, before it there is nothing *)
  1, 3: split; [apply (go_has_prefix_skipn _ _ E)|apply not_contains_nil].
  (* it is not: no occurrence starts here, the others are those of the tail *)
  - intros C. apply contains_inv in C. destruct C as [C|[]]. congruence.
  - destruct (go_cut s sep) as [[a b]|].
    + destruct IH as [-> F]. split; [reflexivity|]. intros Hs C. apply contains_inv in C.
      destruct C as [C|C]; [|exact (F Hs C)].
      (* sep is a prefix of c :: a, hence of c :: s *)
      apply go_has_prefix_spec in C. destruct C as [t C].
      rewrite (proj2 (go_has_prefix_spec _ _)) in E; [discriminate|].
      exists (t ++ sep ++ b). rewrite app_comm_cons, C, <- app_assoc. reflexivity.
    + intros C. apply contains_inv in C. destruct C as [C|C]; [congruence|exact (IH C)].
Qed.

Lemma go_cut_shorter : forall sep s a b, sep <> [] -> go_cut s sep = Some (a, b) ->
  List.length b < List.length s.
Proof.
  intros sep s a b Hsep H. pose proof (go_cut_spec sep s) as C. rewrite H in C. destruct C as [-> _].
  rewrite !app_length. destruct sep; [congruence|]. cbn. lia.
Qed.

Lemma split_loop_nonempty : forall sep k s, go_split_loop k s sep <> [].
Proof.
  intros sep k s. destruct k; cbn; [discriminate|]. destruct (go_cut s sep) as [[? ?]|]; discriminate.
Qed.

Lemma split_loop_join : forall sep k s, join sep (go_split_loop k s sep) = s.
Proof.
  intros sep. induction k as [|k IH]; intro s; cbn [go_split_loop]; [reflexivity|].
  pose proof (go_cut_spec sep s) as C. destruct (go_cut s sep) as [[a b]|]; [|reflexivity].
  specialize (IH b). pose proof (split_loop_nonempty sep k b) as NE.
  destruct (go_split_loop k b sep); [congruence|]. cbn [join] in *. rewrite IH. symmetry. apply C.
Qed.

Lemma split_loop_length : forall sep k s, List.length (go_split_loop k s sep) <= S k.
Proof.
  intros sep. induction k as [|k IH]; intro s; cbn [go_split_loop]; [cbn; lia|].
  destruct (go_cut s sep) as [[a b]|]; cbn [List.length]; [|lia].
  specialize (IH b). lia.
Qed.

Lemma split_loop_pieces : forall sep, sep <> [] -> forall k s,
  Forall (fun p => ~ contains sep p) (removelast (go_split_loop k s sep)) /\
  (List.length (go_split_loop k s sep) < S k ->
   Forall (fun p => ~ contains sep p) (go_split_loop k s sep)).
Proof.
  intros sep Hsep. induction k as [|k IH]; intro s; cbn [go_split_loop].
  - split; [constructor|]. cbn. lia.
  - pose proof (go_cut_spec sep s) as C. destruct (go_cut s sep) as [[a b]|].
    + destruct (IH b) as [IH1 IH2]. destruct C as [_ Ha]. specialize (Ha Hsep). split.
      * pose proof (split_loop_nonempty sep k b) as NE.
        destruct (go_split_loop k b sep) as [|y r] eqn:E2; [congruence|].
        change (removelast (a :: y :: r)) with (a :: removelast (y :: r)).
        constructor; assumption.
      * cbn [List.length]. intro L. constructor; [assumption|]. apply IH2. lia.
    + split; [constructor|]. intros _. constructor; [exact C|constructor].
Qed.

Lemma count_loop_le : forall sep, sep <> [] -> forall f s, go_count_loop f s sep <= List.length s.
Proof.
  intros sep Hsep. induction f as [|f IH]; intro s; cbn [go_count_loop]; [lia|].
  destruct (go_cut s sep) as [[a b]|] eqn:E; [|lia].
  pose proof (go_cut_shorter _ _ _ _ Hsep E). specialize (IH b). lia.
Qed.

Lemma go_cut_nil : forall sep, sep <> [] -> go_cut [] sep = None.
Proof.
  intros sep Hsep. pose proof (go_cut_spec sep []) as C. destruct (go_cut [] sep) as [[a b]|]; [|reflexivity].
  destruct C as [C _]. destruct a, sep; cbn in C; congruence.
Qed.

(** [f] is Count's fuel ([go_count] runs it with the length of the subject); it shrinks with the
    subject while [k] is any bound on the count. *)
Lemma split_loop_enough : forall sep, sep <> [] -> forall f k s,
  List.length s <= f -> go_count_loop f s sep <= k ->
  Forall (fun p => ~ contains sep p) (go_split_loop k s sep).
Proof.
  intros sep Hsep. induction f as [|f IH]; intros k s L Hk.
  - destruct s; [|cbn in L; lia]. destruct k; cbn [go_split_loop]; rewrite ?go_cut_nil by exact Hsep;
      (constructor; [apply not_contains_nil, Hsep|constructor]).
  - cbn [go_count_loop] in Hk. pose proof (go_cut_spec sep s) as C.
    destruct (go_cut s sep) as [[a b]|] eqn:E.
    + destruct k; [lia|]. cbn [go_split_loop]. rewrite E. constructor; [apply C, Hsep|].
      apply IH; [|lia]. pose proof (go_cut_shorter _ _ _ _ Hsep E). lia.
    + destruct k; cbn [go_split_loop]; rewrite ?E; (constructor; [exact C|constructor]).
Qed.

Lemma split_unfold : forall sep s, sep <> [] ->
  Split sep s = go_split_loop (go_count s sep) s sep.
Proof.
  intros sep s Hsep. unfold Split, go_split, go_gen_split.
  change ((-1 =? 0)%Z) with false. change ((-1 <? 0)%Z) with true. cbv iota.
  destruct sep as [|c sep']; [congruence|].
  pose proof (count_loop_le (c :: sep') Hsep (List.length s) s) as L. fold (go_count s (c :: sep')) in L.
  rewrite Nat.min_l by lia. reflexivity.
Qed.

Theorem split_concat : forall sep s, sep <> [] -> Concat sep (Split sep s) = s.
Proof.
  intros sep s Hsep. rewrite concat_is_join, split_unfold by assumption. apply split_loop_join.
Qed.

Theorem split_pieces_sep_free : forall sep s, sep <> [] ->
  Forall (fun p => ~ contains sep p) (Split sep s).
Proof.
  intros sep s Hsep. rewrite split_unfold by assumption.
  exact (split_loop_enough sep Hsep _ _ s (le_n _) (le_n _)).
Qed.

Theorem split_nonempty : forall sep s, sep <> [] -> Split sep s <> [].
Proof. intros sep s Hsep. rewrite split_unfold by assumption. apply split_loop_nonempty. Qed.

Theorem splitn_zero : forall sep s, SplitN 0 sep s = [].
Proof. reflexivity. Qed.

Theorem splitn_negative : forall n sep s, (n < 0)%Z -> SplitN n sep s = Split sep s.
Proof.
  intros n sep s H. unfold SplitN, Split, go_split_n, go_split, go_gen_split, go_explode.
  rewrite (proj2 (Z.ltb_lt n 0) H), (proj2 (Z.eqb_neq n 0)) by lia. reflexivity.
Qed.

Lemma splitn_unfold : forall n sep s, (0 < n)%Z -> sep <> [] ->
  SplitN n sep s = go_split_loop (pred (Nat.min (Z.to_nat n) (S (List.length s)))) s sep.
Proof.
  intros n sep s Hn Hsep. unfold SplitN, go_split_n, go_gen_split.
  rewrite (proj2 (Z.eqb_neq n 0)), (proj2 (Z.ltb_ge n 0)) by lia.
  destruct sep; [congruence|reflexivity].
Qed.

Theorem splitn_positive : forall n sep s, (0 < n)%Z -> sep <> [] ->
  let l := SplitN n sep s in
  Concat sep l = s /\
  1 <= List.length l <= Z.to_nat n /\
  Forall (fun p => ~ contains sep p) (removelast l) /\
  (List.length l < Z.to_nat n -> Forall (fun p => ~ contains sep p) l).
Proof.
  intros n sep s Hn Hsep l. subst l. rewrite splitn_unfold by assumption.
  set (k := pred (Nat.min (Z.to_nat n) (S (List.length s)))).
  assert (Hk : S k = Nat.min (Z.to_nat n) (S (List.length s))) by (subst k; lia).
  pose proof (split_loop_length sep k s) as L1.
  pose proof (split_loop_nonempty sep k s) as NE.
  destruct (split_loop_pieces sep Hsep k s) as [P1 P2].
  rewrite concat_is_join. split; [apply split_loop_join|]. split; [|split].
  - destruct (go_split_loop k s sep); [congruence|]. cbn [List.length]. cbn [List.length] in L1. lia.
  - exact P1.
  - intro L. destruct (Nat.le_gt_cases (Z.to_nat n) (S (List.length s))) as [C|C].
    + apply P2. lia.
    + pose proof (count_loop_le sep Hsep (List.length s) s).
      apply (split_loop_enough sep Hsep (List.length s)); lia.
Qed.

(** * the remaining wrappers (their specification is their definition read with ++) *)

Theorem append_head_spec : forall h s, AppendHead h s = h ++ s.
Proof. reflexivity. Qed.
Theorem append_tail_spec : forall t s, AppendTail t s = s ++ t.
Proof. reflexivity. Qed.
Theorem enclose_with_spec : forall x y c, EncloseWith x y c = x ++ c ++ y.
Proof. reflexivity. Qed.
Theorem length_spec : forall s, Length s = List.length s.
Proof. reflexivity. Qed.
Theorem is_empty_spec : forall s, IsEmpty s = true <-> s = [].
Proof. destruct s; cbn; split; congruence. Qed.
Theorem is_not_empty_spec : forall s, IsNotEmpty s = true <-> s <> [].
Proof. destruct s; cbn; split; congruence. Qed.
