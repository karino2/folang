(** C14 — proofs about the model of pkg/frt (Frt.v): Pipe, the thunk-taking conditionals, tuples,
    toS / SInterP totality, and the fmt facts the driver model (SampleMd) needs. *)
From Coq Require Import List Ascii String ZArith Bool Lia DecimalString DecimalZ DecimalPos.
From FoVerif Require Import Pkg.Buf Pkg.Frt.
Import ListNotations.

Theorem pipe_is_application : forall (T U : Type) (x : T) (f : T -> U), Pipe x f = f x.
Proof. reflexivity. Qed.

Theorem pipe_unit_is_application : forall (E T : Type) (x : T) (f : T -> eff E unit) tr,
  PipeUnit x f tr = f x tr.
Proof. reflexivity. Qed.

Theorem ifelse_runs_chosen : forall (E T : Type) (c : bool) (t f : eff E T) tr,
  IfElse c t f tr = (if c then t tr else f tr).
Proof. reflexivity. Qed.

(** on thunks that log their own events: the trace grows by the events of the chosen thunk and
    by nothing else, and the value is the chosen thunk's *)
Theorem ifelse_runs_exactly_one : forall (E T : Type) (c : bool) (e1 e2 : list E) (v1 v2 : T) tr,
  IfElse c (logging e1 v1) (logging e2 v2) tr = (tr ++ (if c then e1 else e2), if c then v1 else v2).
Proof. intros. destruct c; reflexivity. Qed.

Theorem ifelseunit_runs_exactly_one : forall (E : Type) (c : bool) (e1 e2 : list E) tr,
  IfElseUnit c (logging e1 tt) (logging e2 tt) tr = (tr ++ (if c then e1 else e2), tt).
Proof. intros. destruct c; reflexivity. Qed.

Theorem ifonly_runs_at_most_one : forall (E : Type) (c : bool) (e1 : list E) tr,
  IfOnly c (logging e1 tt) tr = (tr ++ (if c then e1 else []), tt).
Proof. intros. destruct c; cbn; [reflexivity|]. rewrite app_nil_r. reflexivity. Qed.

Theorem tuple2_roundtrips : forall (T U : Type) (a : T) (b0 : U) (t : Tuple2 T U),
  Fst (NewTuple2 a b0) = a /\ Snd (NewTuple2 a b0) = b0 /\ Destr2 (NewTuple2 a b0) = (a, b0) /\
  NewTuple2 (Fst t) (Snd t) = t /\ (let '(x, y) := Destr2 t in NewTuple2 x y) = t.
Proof. intros. destruct t. repeat split. Qed.

Theorem tuple3_roundtrips : forall (T U W : Type) (a : T) (b0 : U) (c : W) (t : Tuple3 T U W),
  Destr3 (NewTuple3 a b0 c) = (a, b0, c) /\ (let '(x, y, z) := Destr3 t in NewTuple3 x y z) = t.
Proof. intros. destruct t. repeat split. Qed.

Theorem dec_reads_back : forall z, z_of_dec (dec z) = z.
Proof.
  intro z. unfold z_of_dec, dec, b. rewrite string_of_list_ascii_of_string.
  (* reading back what was printed succeeds for every numeral with at least one digit, and
     Z.to_int never gives the empty numeral, with either sign *)
  rewrite NilZero.isi; [apply DecimalZ.of_to| |];
    (destruct z; cbn; try discriminate; intro H; inversion H; eapply DecimalPos.Unsigned.to_uint_nonnil; eauto).
Qed.

Theorem to_s_renders : forall v,
  toS v = Ok (match v with
              | GInt _ z | GUint _ z => dec z
              | GFloat _ f _ => f
              | GStr s => s
              | _ => fmt_v v
              end).
Proof. intro v. destruct v as [k z|k z|[|] f g|s|x|l|l]; reflexivity. Qed.

Theorem to_s_total : forall v, exists s, toS v = Ok s.
Proof. intro v. eexists. apply to_s_renders. Qed.

Lemma map_toS_total : forall args, exists l, map_toS toS args = Ok l /\ List.length l = List.length args /\
  Forall (fun x => exists s, x = GStr s) l.
Proof.
  induction args as [|a r [l [E [L F]]]].
  - exists []. repeat split; constructor.
  - destruct (to_s_total a) as [s Es]. exists (GStr s :: l). cbn. rewrite Es. cbn. rewrite E. cbn.
    repeat split; [congruence|]. constructor; eauto.
Qed.

Theorem sinterp_total : forall f args, exists r, SInterP f args = Ok r.
Proof.
  intros f args. destruct (map_toS_total args) as [l [E _]].
  unfold SInterP, SInterP_with. rewrite E. cbn. eauto.
Qed.

(** a format made of text, %% and %s / %v, one verb per operand, is always filled in
    (induction on a bound [n] of the format's length: a verb takes two bytes at once) *)
Lemma sprintf_strings : forall n f l, List.length f <= n ->
  Forall (fun x => exists s, x = GStr s) l ->
  count_sv f = Some (List.length l) -> exists r, sprintf f l = Some r.
Proof.
  induction n as [|n IH]; intros f l Ln Fl C.
  - destruct f; [|cbn in Ln; lia]. cbn in C. destruct l; [cbn; eauto|discriminate].
  - destruct f as [|c f1].
    + cbn in C. destruct l; [cbn; eauto|discriminate].
    + cbn [sprintf count_sv] in *. destruct (Ascii.eqb c "%").
      * destruct f1 as [|verb f2]; [discriminate|].
        destruct (Ascii.eqb verb "%") eqn:Ev.
        -- destruct (IH f2 l) as [r E]; [cbn in Ln; lia|assumption|assumption|]. rewrite E. cbn. eauto.
        -- destruct (Ascii.eqb verb "s" || Ascii.eqb verb "v") eqn:Esv; [|discriminate].
           destruct (count_sv f2) as [m|] eqn:Cm; [|discriminate]. cbn in C.
           destruct l as [|a l']; [discriminate|]. inversion Fl as [|? ? [s ->] Fl']; subst.
           destruct (IH f2 l') as [r E]; [cbn in Ln; lia|assumption|cbn in C; congruence|].
           rewrite E. unfold fmt_verb.
           destruct (Ascii.eqb verb "v"); [eauto|].
           destruct (Ascii.eqb verb "d") eqn:Ed.
           ++ apply Ascii.eqb_eq in Ed. subst verb. cbn in Esv. discriminate.
           ++ destruct (Ascii.eqb verb "s"); [eauto|]. cbn in Esv. discriminate.
      * destruct (IH f1 l) as [r E]; [cbn in Ln; lia|assumption|assumption|]. rewrite E. cbn. eauto.
Qed.

Theorem sinterp_wellformed : forall f args,
  count_sv f = Some (List.length args) -> exists s, SInterP f args = Ok (Some s).
Proof.
  intros f args C. destruct (map_toS_total args) as [l [E [L F]]].
  unfold SInterP, SInterP_with. rewrite E. cbn.
  destruct (sprintf_strings (List.length f) f l) as [r Er]; [lia|assumption|congruence|].
  rewrite Er. eauto.
Qed.

(** * fmt facts used by the driver model: text%stext with a string operand *)

Definition no_percent (s : bytes) : Prop := forallb (fun c => negb (Ascii.eqb c "%")) s = true.

Lemma sprintf_text : forall s, no_percent s -> sprintf s [] = Some s.
Proof.
  unfold no_percent. induction s as [|c s IH]; cbn [forallb sprintf]; [reflexivity|].
  destruct (Ascii.eqb c "%"); [discriminate|]. intro H. rewrite IH by exact H. reflexivity.
Qed.

Lemma sprintf_prefix : forall pre f args, no_percent pre ->
  sprintf (pre ++ f) args = option_map (app pre) (sprintf f args).
Proof.
  unfold no_percent. induction pre as [|c pre IH]; intros f args; cbn [forallb app sprintf].
  - destruct (sprintf f args); reflexivity.
  - destruct (Ascii.eqb c "%"); [discriminate|]. intro H. rewrite IH by exact H.
    destruct (sprintf f args); reflexivity.
Qed.

Theorem sprintf1_string : forall pre post s, no_percent pre -> no_percent post ->
  Sprintf1 (pre ++ b "%s" ++ post) (GStr s) = Some (pre ++ s ++ post).
Proof.
  intros pre post s Hp Hq. unfold Sprintf1. rewrite sprintf_prefix by assumption.
  cbn [b list_ascii_of_string app sprintf]. cbn [Ascii.eqb Bool.eqb]. cbn [fmt_verb Ascii.eqb Bool.eqb].
  rewrite sprintf_text by assumption. reflexivity.
Qed.

(** * documentation: before the repair an unsigned operand made toS (hence SInterP) panic *)

Example to_s_old_panics_on_unsigned :
  exists m, toS_old (GUint KUint8 7) = Panic m /\
            SInterP_old (b "%s") [GUint KUint64 18446744073709551615] = Panic m.
Proof. eexists. split; reflexivity. Qed.

Example to_s_now_formats_unsigned :
  SInterP (b "n=%s") [GUint KUint64 18446744073709551615] = Ok (Some (b "n=18446744073709551615")).
Proof. vm_compute. reflexivity. Qed.
