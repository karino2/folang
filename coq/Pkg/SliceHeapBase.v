(** C12/C13 — basic facts about the heap model: frames, valid slices, allocation, append. *)
From Coq Require Import List Arith Lia Bool ZArith Permutation.
From FoVerif Require Import Pkg.SliceHeap.
Import ListNotations.

Definition valid (h : heap) (s : slice) : Prop :=
  match sarr s with
  | None => slen s = 0 /\ scap s = 0
  | Some a => a < length h /\ soff s + scap s <= length (getarr h a) /\ slen s <= scap s
  end.
Definition frame (n : nat) (h h' : heap) : Prop :=
  length h <= length h' /\ forall a, a < n -> getarr h' a = getarr h a.
(** no array that existed before is modified *)
Definition heap_extends (h h' : heap) : Prop := frame (length h) h h'.
Definition fresh (n : nat) (s : slice) : Prop :=
  match sarr s with None => True | Some a => n <= a end.
(** the state of a function that assembles its result in [res]: the arrays of the heap [h0] it
    was called on are as they were, [res] is nil or lives in an array allocated since, and it
    holds [l] so far *)
Definition building (h0 h : heap) (res : slice) (l : list val) : Prop :=
  heap_extends h0 h /\ fresh (length h0) res /\ valid h res /\ contents h res = l.

Lemma upd_length {A} (l : list A) i x : length (upd l i x) = length l.
Proof. revert i; induction l; intros [|i]; cbn; auto. Qed.
Lemma nth_upd_same {A} (l : list A) i x d : i < length l -> nth i (upd l i x) d = x.
Proof. revert i; induction l; intros [|i] H; cbn in *; try lia; auto. apply IHl; lia. Qed.
Lemma nth_upd_other {A} (l : list A) i j x d : i <> j -> nth j (upd l i x) d = nth j l d.
Proof. revert i j; induction l; intros [|i] [|j] H; cbn; auto; try lia. Qed.
Lemma upd_nth_same {A} (l : list A) i d : upd l i (nth i l d) = l.
Proof. revert i; induction l; intros [|i]; cbn; auto. f_equal. apply IHl. Qed.
Lemma firstn_app_exact {A} (l1 l2 : list A) n : length l1 = n -> firstn n (l1 ++ l2) = l1.
Proof. intros <-. rewrite firstn_app, Nat.sub_diag, firstn_all. cbn. apply app_nil_r. Qed.
Lemma skipn_app_exact {A} (l1 l2 : list A) n : length l1 = n -> skipn n (l1 ++ l2) = l2.
Proof. intros <-. rewrite skipn_app, Nat.sub_diag, skipn_all. reflexivity. Qed.
Lemma skipn_add {A} (l : list A) a off : skipn (a + off) l = skipn a (skipn off l).
Proof.
  revert l; induction off as [|off IH]; intros l; [rewrite Nat.add_0_r; reflexivity|].
  rewrite Nat.add_succ_r. destruct l; [rewrite !skipn_nil; reflexivity|apply IH].
Qed.
Lemma nth_firstn_skipn {A} (l : list A) off len i d :
  i < len -> nth i (firstn len (skipn off l)) d = nth (off + i) l d.
Proof.
  revert off len i. induction l as [|y l IH]; intros off len i H.
  - rewrite skipn_nil, firstn_nil. destruct i, (off + _); reflexivity.
  - destruct off as [|off]; cbn [skipn plus].
    + destruct len as [|len]; [lia|]. destruct i as [|i]; cbn; auto. apply (IH 0 len i). lia.
    + cbn. apply IH. exact H.
Qed.
Lemma skipn_nth_cons {A} (l : list A) i d : i < length l -> skipn i l = nth i l d :: skipn (S i) l.
Proof. revert i; induction l as [|y l IH]; intros i H; cbn in H; [lia|].
  destruct i; cbn; auto. apply IH. lia. Qed.
Lemma firstn_S_nth {A} (l : list A) i d : i < length l -> firstn (S i) l = firstn i l ++ [nth i l d].
Proof. revert i; induction l as [|y l IH]; intros i H; cbn in H; [lia|].
  destruct i; cbn; auto. f_equal. apply IH. lia. Qed.

Lemma zeros_length k : length (zeros k) = k.
Proof. apply repeat_length. Qed.
Lemma splice_length l i xs : i + length xs <= length l -> length (splice l i xs) = length l.
Proof. intros H. unfold splice. rewrite !app_length, firstn_length, skipn_length. lia. Qed.
Lemma splice_nil l i : splice l i [] = l.
Proof. unfold splice. cbn. rewrite Nat.add_0_r. apply firstn_skipn. Qed.
Lemma splice_window l off len xs :
  off + len + length xs <= length l ->
  firstn (len + length xs) (skipn off (splice l (off + len) xs)) = firstn len (skipn off l) ++ xs.
Proof.
  intros H. unfold splice.
  assert (E : firstn (off + len) l = firstn off l ++ firstn len (skipn off l)).
  { rewrite <- (firstn_skipn off l) at 1. rewrite firstn_app, firstn_length, Nat.min_l by lia.
    rewrite firstn_firstn, Nat.min_r by lia. f_equal. f_equal. lia. }
  rewrite E, <- app_assoc. rewrite skipn_app_exact by (rewrite firstn_length; lia).
  rewrite app_assoc. apply firstn_app_exact.
  rewrite app_length, firstn_length, skipn_length. lia.
Qed.
Lemma splice_window0 l off xs :
  off + length xs <= length l -> firstn (length xs) (skipn off (splice l off xs)) = xs.
Proof.
  intros H. pose proof (splice_window l off 0 xs) as W. rewrite Nat.add_0_r in W. apply W. lia.
Qed.

Lemma getarr_upd_same h a l : a < length h -> getarr (upd h a l) a = l.
Proof. apply nth_upd_same. Qed.
Lemma getarr_upd_other h a b l : a <> b -> getarr (upd h a l) b = getarr h b.
Proof. apply nth_upd_other. Qed.
Lemma getarr_alloc_new h a : getarr (alloc h a) (length h) = a.
Proof. unfold getarr, alloc. rewrite app_nth2, Nat.sub_diag by lia. reflexivity. Qed.
Lemma getarr_alloc_old h a b : b < length h -> getarr (alloc h a) b = getarr h b.
Proof. intros H. unfold getarr, alloc. rewrite app_nth1 by lia. reflexivity. Qed.
Lemma alloc_length h a : length (alloc h a) = S (length h).
Proof. unfold alloc. rewrite app_length. cbn. lia. Qed.
Lemma upd_getarr h a : upd h a (getarr h a) = h.
Proof. apply upd_nth_same. Qed.

Lemma frame_refl n h : frame n h h. Proof. split; auto. Qed.
Lemma frame_trans n h1 h2 h3 : frame n h1 h2 -> frame n h2 h3 -> frame n h1 h3.
Proof. intros (L1 & F1) (L2 & F2); split; [lia|]. intros a Ha. rewrite F2, F1 by exact Ha. reflexivity. Qed.
Lemma frame_weaken n m h h' : m <= n -> frame n h h' -> frame m h h'.
Proof. intros Hm (L & F). split; [exact L|]. intros a Ha. apply F. lia. Qed.
Lemma frame_alloc h a : heap_extends h (alloc h a).
Proof. split; [rewrite alloc_length; lia|]. intros b. apply getarr_alloc_old. Qed.
Lemma frame_upd n h a l : n <= a -> frame n h (upd h a l).
Proof. intros H. split; [rewrite upd_length; lia|]. intros b Hb. apply getarr_upd_other. lia. Qed.
Lemma heap_extends_refl h : heap_extends h h. Proof. apply frame_refl. Qed.
Lemma heap_extends_trans h1 h2 h3 : heap_extends h1 h2 -> heap_extends h2 h3 -> heap_extends h1 h3.
Proof. unfold heap_extends. intros F1 F2. eapply frame_trans; [exact F1|].
  eapply frame_weaken; [|exact F2]. destruct F1; lia. Qed.

Lemma extends_getarr {h h' s a} : heap_extends h h' -> valid h s -> sarr s = Some a -> getarr h' a = getarr h a.
Proof. unfold valid. intros (_ & F) V Sa. rewrite Sa in V. apply F, V. Qed.
Lemma extends_contents {h h' s} : heap_extends h h' -> valid h s -> contents h' s = contents h s.
Proof. intros X V. unfold contents. destruct (sarr s) eqn:Sa; [|reflexivity].
  rewrite (extends_getarr X V Sa). reflexivity. Qed.
Lemma extends_valid {h h' s} : heap_extends h h' -> valid h s -> valid h' s.
Proof. intros X V. pose proof (fun a => extends_getarr (a:=a) X V) as G. destruct X as (L & _).
  unfold valid in *. destruct (sarr s); [|exact V]. rewrite (G _ eq_refl). intuition lia. Qed.

Lemma valid_len_cap {h s} : valid h s -> slen s <= scap s.
Proof. unfold valid. destruct (sarr s); lia. Qed.
Lemma contents_length {h s} : valid h s -> length (contents h s) = slen s.
Proof. unfold valid, contents. destruct (sarr s) as [a|].
  - intros (La & Lc & Ll). rewrite firstn_length, skipn_length. lia.
  - intros (-> & _). reflexivity. Qed.
Lemma get_contents {h s} i : i < slen s -> get h s i = nth i (contents h s) vdef.
Proof. unfold get, contents. intros Hi. destruct (sarr s) as [a|].
  - symmetry. apply nth_firstn_skipn. exact Hi.
  - destruct i; reflexivity. Qed.
(** the loops read their argument live, from a heap that has grown since the call *)
Lemma get_extends {h0 h s} i :
  heap_extends h0 h -> valid h0 s -> i < slen s -> get h s i = nth i (contents h0 s) vdef.
Proof. intros X V Hi. rewrite <- (extends_contents X V). apply get_contents, Hi. Qed.
Lemma valid_nil h : valid h nilslice. Proof. split; reflexivity. Qed.
Lemma contents_nil h : contents h nilslice = []. Proof. reflexivity. Qed.
Lemma fresh_nil n : fresh n nilslice. Proof. exact I. Qed.

(** Go's slice expression s[lo : lo+len : lo+cap] *)
Lemma subslice_spec h s lo len cap :
  valid h s -> lo + len <= slen s -> len <= cap -> lo + cap <= scap s ->
  valid h (mk (sarr s) (lo + soff s) len cap) /\
  contents h (mk (sarr s) (lo + soff s) len cap) = firstn len (skipn lo (contents h s)).
Proof.
  unfold valid, contents; cbn [sarr soff slen scap]. intros V Hl Hc Ha. destruct (sarr s).
  - split; [lia|]. rewrite skipn_firstn_comm, firstn_firstn, Nat.min_l, skipn_add by lia. reflexivity.
  - split; [lia|]. rewrite skipn_nil, firstn_nil. reflexivity.
Qed.

Lemma building_nil h : building h h nilslice [].
Proof. split; [apply heap_extends_refl|]. split; [exact I|]. split; [apply valid_nil|reflexivity]. Qed.
(** the callee's view becomes the caller's *)
Lemma building_rebase {h0 h h' res l} : heap_extends h0 h -> building h h' res l -> building h0 h' res l.
Proof.
  intros X (X' & F & VC). split; [eapply heap_extends_trans; eassumption|]. split; [|exact VC].
  destruct X as (L & _). unfold fresh in *. destruct (sarr res); [lia|exact I].
Qed.
(** someone else allocates while the result is under construction *)
Lemma building_later {h0 h h' res l} : building h0 h res l -> heap_extends h h' -> building h0 h' res l.
Proof.
  intros (X & F & V & C) X'. split; [eapply heap_extends_trans; eassumption|]. split; [exact F|].
  split; [eapply extends_valid; eassumption|]. rewrite (extends_contents X' V). exact C.
Qed.

(** a new array [a] and a slice over its first cells: every allocation of the model *)
Lemma alloc_slice h a len cap l : len <= cap <= length a -> firstn len a = l ->
  building h (alloc h a) (mk (Some (length h)) 0 len cap) l.
Proof.
  intros H E. split; [apply frame_alloc|]. split; [cbn; lia|]. split.
  - unfold valid; cbn. rewrite alloc_length, getarr_alloc_new. lia.
  - unfold contents; cbn. rewrite getarr_alloc_new. exact E.
Qed.
Lemma literal_spec h l {h' s} : literal h l = (h', s) -> building h h' s l.
Proof. intros E. inversion E; subst. apply alloc_slice; [lia|apply firstn_all]. Qed.
Lemma make0_spec h c {h' s} : make0 h c = (h', s) -> building h h' s [].
Proof. intros E. inversion E; subst. apply alloc_slice; [rewrite zeros_length; lia|reflexivity]. Qed.
Lemma make_filled_spec h l extra {h' s} : make_filled h l extra = (h', s) -> building h h' s l.
Proof.
  intros E. inversion E; subst.
  apply alloc_slice; [rewrite app_length, zeros_length; lia|apply firstn_app_exact; reflexivity].
Qed.

Section Grow.
Variable grow : nat -> nat -> nat.
Hypothesis grow_ok : forall c n, n <= grow c n.

Lemma appendN_nil h s : valid h s -> appendN grow h s [] = (h, s).
Proof.
  intros V. unfold appendN. cbn [length]. rewrite Nat.add_0_r.
  rewrite (proj2 (Nat.leb_le _ _) (valid_len_cap V)).
  destruct s as [[a|] off len cap]; cbn [sarr soff slen scap]; [|reflexivity]. rewrite splice_nil, upd_getarr. reflexivity.
Qed.

(** append writes in place when the capacity suffices: then the target has to be ours *)
Lemma appendN_spec {h0 h s xs h' s'} :
  heap_extends h0 h -> valid h s -> (slen s + length xs <= scap s -> fresh (length h0) s) ->
  appendN grow h s xs = (h', s') -> building h0 h' s' (contents h s ++ xs).
Proof.
  intros X V F E. unfold appendN in E. destruct (slen s + length xs <=? scap s) eqn:C.
  - apply Nat.leb_le in C. specialize (F C). unfold valid, fresh in *. destruct (sarr s) as [a|] eqn:Sa.
    + inversion E; subst; clear E. destruct V as (La & Lc & Ll).
      split; [eapply frame_trans; [exact X|apply frame_upd, F]|]. split; [exact F|]. split.
      * unfold valid; cbn. rewrite upd_length, getarr_upd_same, splice_length by lia. lia.
      * unfold contents; cbn. rewrite Sa, getarr_upd_same by exact La. apply splice_window. lia.
    + inversion E; subst; clear E. destruct xs; [|cbn in C; lia]. rewrite app_nil_r.
      split; [exact X|]. unfold fresh, valid. rewrite Sa. auto.
  - apply Nat.leb_gt in C. inversion E; subst; clear E. apply (building_rebase X).
    pose proof (contents_length V) as CL.
    pose proof (grow_ok (scap s) (slen s + length xs)) as G.
    apply alloc_slice; [rewrite !app_length, CL, zeros_length; lia|].
    rewrite app_assoc. apply firstn_app_exact. rewrite app_length, CL. reflexivity.
Qed.

Lemma building_append {h0 h res l xs h' res'} :
  building h0 h res l -> appendN grow h res xs = (h', res') -> building h0 h' res' (l ++ xs).
Proof. intros (X & F & V & <-). apply appendN_spec; auto. Qed.
(** ... of an argument of the call, read from the heap as it is now *)
Lemma building_append_arg {h0 h res l s h' res'} : valid h0 s ->
  building h0 h res l -> appendN grow h res (contents h s) = (h', res') -> building h0 h' res' (l ++ contents h0 s).
Proof. intros V B. rewrite (extends_contents (proj1 B) V). apply building_append, B. Qed.
End Grow.
