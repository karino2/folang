(** C12 — histories of slice-package calls over a growing pool of slice values:
    every value keeps the contents it had when it was produced; and the whole heap
    implementation refines the pure list semantics (so contents do not depend on [grow]). *)
From Coq Require Import List Arith Bool ZArith Permutation.
From FoVerif Require Import Pkg.SliceHeap Pkg.SliceHeapBase Pkg.SliceHeapProofs.
Import ListNotations.

Definition wf (st : state) : Prop := List.Forall (valid (fst st)) (snd st).

(** the same history on plain lists: the pool is a list of lists *)
Definition apool := list (list val).
Definition apick (ap : apool) (i : nat) : list val := nth i ap [].
Definition apush (ap : apool) (r : result (list val)) : apool :=
  match r with Ok l => ap ++ [l] | Panic _ => ap end.
Definition spec_cb (ap : apool) (f : cbk) : val -> list val :=
  match f with
  | CbFresh g => g
  | CbPick js => fun e => nth (pick_index (length js) e) (map (apick ap) js) []
  end.

Section History.
Variable sorter : (val -> Z) -> list val -> list val.
Hypothesis sorter_perm : forall key l, Permutation l (sorter key l).

Definition spec_step (ap : apool) (c : call) : apool :=
  match c with
  | CLit l => ap ++ [l]
  | CMake l _ => ap ++ [l]
  | CNew => ap ++ [[]]
  | CTail i => apush ap (spec_tail (apick ap i))
  | CPopLast i => apush ap (spec_poplast (apick ap i))
  | CTake n i => apush ap (spec_take n (apick ap i))
  | CSkip n i => apush ap (spec_skip n (apick ap i))
  | CMap f i => ap ++ [map f (apick ap i)]
  | CMapi f i => ap ++ [mapi_from f 0 (apick ap i)]
  | CFilter f i => ap ++ [filter f (apick ap i)]
  | CSort i => ap ++ [sorter vkey (apick ap i)]
  | CSortBy f i => ap ++ [sorter f (apick ap i)]
  | CZip i j => apush ap (spec_zip (apick ap i) (apick ap j))
  | CPushLast x i => ap ++ [apick ap i ++ [x]]
  | CPushHead x i => ap ++ [x :: apick ap i]
  | CCollect f i => ap ++ [flat_map (spec_cb ap f) (apick ap i)]
  | CConcat is => ap ++ [concat (map (apick ap) is)]
  | CAppend i j => ap ++ [apick ap i ++ apick ap j]
  | CDistinct i => ap ++ [dedup [] (apick ap i)]
  | CObserve _ => ap
  end.
Definition spec_run (ap : apool) (cs : list call) : apool := fold_left spec_step cs ap.

Section Grow.
Variable grow : nat -> nat -> nat.
Hypothesis grow_ok : forall c n, n <= grow c n.

Notation step := (step grow sorter).
Notation run := (run grow sorter).

Lemma nth_contents h l i : contents h (nth i l nilslice) = nth i (map (contents h) l) [].
Proof. change (@nil val) with (contents h nilslice). apply eq_sym, map_nth. Qed.
Lemma pick_contents h p i : contents h (pick p i) = apick (map (contents h) p) i.
Proof. apply nth_contents. Qed.
Lemma picks_contents h p is : map (contents h) (picks p is) = map (apick (map (contents h) p)) is.
Proof. unfold picks. rewrite map_map. apply map_ext. intros i. apply pick_contents. Qed.

Lemma observe_extends h h' p : heap_extends h h' -> List.Forall (valid h) p ->
  map (contents h') p = map (contents h) p.
Proof. intros X W. apply map_ext_in. intros s H. rewrite Forall_forall in W. apply extends_contents; auto. Qed.
Lemma wf_extends h h' p : heap_extends h h' -> List.Forall (valid h) p -> List.Forall (valid h') p.
Proof. intros X W. eapply Forall_impl; [|exact W]. intros s V. eapply extends_valid; eauto. Qed.

(** from heap [h] and pool [p] to the state [st']: no array of [h] is modified, every pool value is
    valid, their contents are [ap'], and the pool has only grown at its end *)
Definition evolves (h : heap) (p : pool) (st' : state) (ap' : apool) : Prop :=
  heap_extends h (fst st') /\ wf st' /\ observe st' = ap' /\ exists new, snd st' = p ++ new.

Lemma evolves_refl h p : List.Forall (valid h) p -> evolves h p (h, p) (map (contents h) p).
Proof.
  intros W. split; [apply heap_extends_refl|]. split; [exact W|]. split; [reflexivity|].
  exists []. symmetry. apply app_nil_r.
Qed.
Lemma evolves_trans h p st1 ap1 st2 ap2 :
  evolves h p st1 ap1 -> evolves (fst st1) (snd st1) st2 ap2 -> evolves h p st2 ap2.
Proof.
  intros (X1 & _ & _ & n1 & P1) (X2 & W2 & O2 & n2 & P2).
  split; [eapply heap_extends_trans; eauto|]. split; [exact W2|]. split; [exact O2|].
  exists (n1 ++ n2). rewrite P2, P1, app_assoc. reflexivity.
Qed.

Section Step.
Variables (h : heap) (p : pool).
Hypothesis W : List.Forall (valid h) p.

Lemma nth_valid l i : List.Forall (valid h) l -> valid h (nth i l nilslice).
Proof.
  intros Wl. destruct (le_lt_dec (length l) i) as [H|H].
  - rewrite nth_overflow by exact H. apply valid_nil.
  - rewrite Forall_forall in Wl. apply Wl, nth_In, H.
Qed.
Lemma pick_valid i : valid h (pick p i).
Proof. apply nth_valid, W. Qed.
Lemma picks_valid is : List.Forall (valid h) (picks p is).
Proof. apply Forall_forall. intros s H. apply in_map_iff in H. destruct H as (i & <- & _). apply pick_valid. Qed.

Lemma push_result_ok r spec :
  (forall h' x, r = (h', x) -> heap_extends h h' /\ refines h' x spec) ->
  evolves h p (push_result p r) (apush (map (contents h) p) spec).
Proof.
  intros S. destruct r as [h' x]. destruct (S _ _ eq_refl) as (X & R).
  unfold push_result, evolves, wf, observe. rewrite <- (observe_extends _ _ _ X W).
  destruct spec as [l|pk]; cbn [refines apush] in *.
  - destruct R as (res & -> & V & <-). cbn [fst snd]. split; [exact X|].
    split; [apply Forall_app; split; [eapply wf_extends; eauto|repeat constructor; exact V]|].
    split; [apply map_app|eexists; reflexivity].
  - subst x. cbn [fst snd]. split; [exact X|]. split; [eapply wf_extends; eauto|].
    split; [reflexivity|]. exists []. symmetry. apply app_nil_r.
Qed.
Lemma lit_state_ok r l : building h (fst r) (snd r) l ->
  evolves h p (lit_state p r) (map (contents h) p ++ [l]).
Proof.
  intros B. apply (push_result_ok (fst r, Ok (snd r)) (Ok l)). intros h' x E. inversion E; subst.
  apply building_done, B.
Qed.

Lemma cb_of_ok f : cb_ok (length h) h (cb_of p f) (spec_cb (map (contents h) p) f).
Proof.
  destruct f as [g|js]; intros hh e h1 one Fr Ln E; cbn [cb_of spec_cb] in *.
  - apply literal_spec in E. destruct E as (X & _ & V & C). auto.
  - inversion E; subst; clear E. split; [apply heap_extends_refl|].
    pose proof (nth_valid _ (pick_index (length (picks p js)) e) (picks_valid js)) as V.
    split; [exact (extends_valid Fr V)|]. rewrite (extends_contents Fr V).
    rewrite nth_contents, picks_contents. unfold picks. rewrite map_length. reflexivity.
Qed.

Lemma step_spec_at c : evolves h p (step (h, p) c) (spec_step (map (contents h) p) c).
Proof.
  destruct c; cbn [SliceHeap.step spec_step]; rewrite <- ?pick_contents.
  - (* CLit *) exact (lit_state_ok (literal h l) _ (literal_spec h l eq_refl)).
  - (* CMake *) exact (lit_state_ok (make_filled h l extra) _ (make_filled_spec h l extra eq_refl)).
  - (* CNew *) apply (push_result_ok _ (Ok _)). intros h' r. apply New_spec.
  - (* CTail *) apply push_result_ok. intros h' r E.
    destruct (Tail_spec _ _ _ _ (pick_valid i) E) as (-> & R). split; [apply heap_extends_refl|exact R].
  - (* CPopLast *) apply push_result_ok. intros h' r E.
    destruct (PopLast_spec _ _ _ _ (pick_valid i) E) as (-> & R). split; [apply heap_extends_refl|exact R].
  - (* CTake *) apply push_result_ok. intros h' r. apply (Take_spec grow grow_ok), pick_valid.
  - (* CSkip *) apply push_result_ok. intros h' r. apply (Skip_spec grow grow_ok), pick_valid.
  - (* CMap *) apply (push_result_ok _ (Ok _)). intros h' r. apply (Map_spec grow grow_ok), pick_valid.
  - (* CMapi *) apply (push_result_ok _ (Ok _)). intros h' r. apply (Mapi_spec grow grow_ok), pick_valid.
  - (* CFilter *) apply (push_result_ok _ (Ok _)). intros h' r. apply (Filter_spec grow grow_ok), pick_valid.
  - (* CSort *) apply (push_result_ok _ (Ok _)). intros h' r. apply (SortBy_spec grow grow_ok sorter sorter_perm), pick_valid.
  - (* CSortBy *) apply (push_result_ok _ (Ok _)). intros h' r. apply (SortBy_spec grow grow_ok sorter sorter_perm), pick_valid.
  - (* CZip *) apply push_result_ok. intros h' r. apply (Zip_spec grow grow_ok); apply pick_valid.
  - (* CPushLast *) apply (push_result_ok _ (Ok _)). intros h' r. apply (PushLast_spec grow grow_ok), pick_valid.
  - (* CPushHead *) apply (push_result_ok _ (Ok _)). intros h' r. apply (PushHead_spec grow grow_ok), pick_valid.
  - (* CCollect *) apply (push_result_ok _ (Ok _)). intros h' r.
    apply (Collect_spec grow grow_ok); [apply pick_valid|apply cb_of_ok].
  - (* CConcat *) rewrite <- picks_contents. apply (push_result_ok _ (Ok _)). intros h' r.
    apply (Concat_spec grow grow_ok), picks_valid.
  - (* CAppend *) apply (push_result_ok _ (Ok _)). intros h' r. apply (Append_spec grow grow_ok); apply pick_valid.
  - (* CDistinct *) apply (push_result_ok _ (Ok _)). intros h' r. apply (Distinct_spec grow grow_ok), pick_valid.
  - (* CObserve *) apply evolves_refl, W.
Qed.
End Step.

Theorem step_spec st c : wf st ->
  evolves (fst st) (snd st) (step st c) (spec_step (observe st) c).
Proof. destruct st as [h p]. intros W. exact (step_spec_at h p W c). Qed.

Corollary step_frame st c : wf st -> heap_extends (fst st) (fst (step st c)).
Proof. intros W. apply (step_spec st c W). Qed.

Lemma run_evolves cs : forall st, wf st ->
  evolves (fst st) (snd st) (run st cs) (spec_run (observe st) cs).
Proof.
  induction cs as [|c cs IH]; intros st W; cbn [SliceHeap.run fold_left spec_run].
  - destruct st. apply evolves_refl, W.
  - eapply evolves_trans; [exact (step_spec st c W)|].
    destruct (step_spec st c W) as (_ & W1 & <- & _). apply IH, W1.
Qed.


Lemma run_preserves st cs i v : wf st -> nth_error (snd st) i = Some v ->
  nth_error (snd (run st cs)) i = Some v /\ contents (fst (run st cs)) v = contents (fst st) v.
Proof.
  intros W N. destruct (run_evolves cs st W) as (X & _ & _ & new & P). split.
  - rewrite P, nth_error_app1; [exact N|]. apply nth_error_Some. congruence.
  - apply extends_contents; [exact X|]. unfold wf in W. rewrite Forall_forall in W.
    apply W. eapply nth_error_In, N.
Qed.

(** C12: for every growth policy and every history [before ++ after], every slice value v that is
    in the pool after [before] (i.e. was created by one of those calls) is still in the pool
    under the same index and has, after the whole history, the contents it had then *)
Theorem history_preserves_contents before after i v :
  nth_error (snd (run init before)) i = Some v ->
  nth_error (snd (run init (before ++ after))) i = Some v /\
  contents (fst (run init (before ++ after))) v = contents (fst (run init before)) v.
Proof.
  unfold SliceHeap.run. rewrite fold_left_app. apply run_preserves, (run_evolves before init (Forall_nil _)).
Qed.

(** the same on the observable: the contents listed at an index stay what they are *)
Corollary history_preserves_contents_observe before after i l :
  nth_error (observe (run init before)) i = Some l ->
  nth_error (observe (run init (before ++ after))) i = Some l.
Proof.
  unfold observe. intros N. rewrite nth_error_map in N |- *.
  destruct (nth_error (snd (run init before)) i) as [v|] eqn:E; [|discriminate].
  destruct (history_preserves_contents before after i v E) as (-> & C). cbn in *. rewrite C. exact N.
Qed.

Theorem run_refines_lists cs : observe (run init cs) = spec_run [] cs.
Proof. apply (run_evolves cs init (Forall_nil _)). Qed.
End Grow.

Corollary contents_independent_of_grow grow1 grow2 :
  (forall c n, n <= grow1 c n) -> (forall c n, n <= grow2 c n) ->
  forall cs, observe (SliceHeap.run grow1 sorter init cs) = observe (SliceHeap.run grow2 sorter init cs).
Proof. intros G1 G2 cs. rewrite (run_refines_lists grow1 G1), (run_refines_lists grow2 G2). reflexivity. Qed.
End History.

(** The code before the repair of PushLast (append in place) violated the property: *)
Example poplast_pushlast_old_refuted :
  let cs := [CLit [VI 1; VI 2; VI 3]; CPopLast 0; CPushLast (VI 9) 1] in
  let st2 := fold_left (step_OLD grow_double isort_by) (firstn 2 cs) init in
  let st3 := fold_left (step_OLD grow_double isort_by) cs init in
  nth 0 (observe st2) [] = [VI 1; VI 2; VI 3] /\ nth 0 (observe st3) [] = [VI 1; VI 2; VI 9].
Proof. vm_compute. split; reflexivity. Qed.
(** ... also without any shortening: two extensions of one value with spare capacity *)
Example double_pushlast_old_refuted :
  let cs := [CMake [VI 1] 2; CPushLast (VI 2) 0; CPushLast (VI 3) 0] in
  let st2 := fold_left (step_OLD grow_double isort_by) (firstn 2 cs) init in
  let st3 := fold_left (step_OLD grow_double isort_by) cs init in
  nth 1 (observe st2) [] = [VI 1; VI 2] /\ nth 1 (observe st3) [] = [VI 1; VI 3].
Proof. vm_compute. split; reflexivity. Qed.
(** the repaired code on the same histories *)
Example poplast_pushlast_now :
  let cs := [CLit [VI 1; VI 2; VI 3]; CPopLast 0; CPushLast (VI 9) 1] in
  observe (run grow_double isort_by init cs) = [[VI 1; VI 2; VI 3]; [VI 1; VI 2]; [VI 1; VI 2; VI 9]].
Proof. vm_compute. reflexivity. Qed.
