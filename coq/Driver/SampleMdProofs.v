(** C18 — proofs about the model of build_sample_md (SampleMd.v). *)
From Coq Require Import List Ascii String ZArith Bool.
From FoVerif Require Import Pkg.Buf Pkg.Strings Pkg.Frt Pkg.StringsProofs Pkg.FrtProofs Driver.SampleMd.
Import ListNotations.

Lemma cut_space : forall l,
  go_cut l (b " ") = match split_space l with
                     | (f, Some t) => Some (f, t)
                     | (_, None) => None
                     end.
Proof.
  induction l as [|c r IH]; [reflexivity|].
  cbn [go_cut split_space].
  assert (P : go_has_prefix (c :: r) (b " ") = Ascii.eqb c " ").
  { unfold go_has_prefix. cbn. rewrite andb_true_r. reflexivity. }
  rewrite P. destruct (Ascii.eqb c " ") eqn:E; [reflexivity|].
  rewrite IH. destruct (split_space r) as [f [t|]]; reflexivity.
Qed.

Lemma split_space_spec : forall l f t, split_space l = (f, t) ->
  ~ In " "%char f /\ match t with Some t' => l = f ++ " "%char :: t' | None => l = f end.
Proof.
  induction l as [|c r IH]; intros f t H; cbn [split_space] in H.
  - inversion H; subst. split; [intros []|reflexivity].
  - destruct (Ascii.eqb c " ") eqn:E.
    + inversion H; subst. apply Ascii.eqb_eq in E. subst c. split; [intros []|reflexivity].
    + destruct (split_space r) as [f' t'] eqn:E2. inversion H; subst.
      destruct (IH f' t eq_refl) as [N S]. split.
      * intros [Hc|Hin]; [|contradiction]. subst c. rewrite Ascii.eqb_refl in E. discriminate.
      * destruct t; cbn; congruence.
Qed.

Lemma splitn2_space : forall l,
  SplitN 2 (b " ") l = match split_space l with
                       | (f, Some t) => [f; t]
                       | (_, None) => [l]
                       end.
Proof.
  intros l. rewrite splitn_unfold by (try discriminate; reflexivity).
  destruct l as [|c r]; [reflexivity|].
  change (pred (Nat.min (Z.to_nat 2) (S (List.length (c :: r))))) with 1. cbn [go_split_loop].
  rewrite cut_space. destruct (split_space (c :: r)) as [f [t|]]; reflexivity.
Qed.

(** what convOne takes from a line: Head and Last of its (one or two) columns *)
Lemma columns_head_last : forall l,
  slice_head (SplitN 2 (b " ") l) = Ok (line_file l) /\
  slice_last (SplitN 2 (b " ") l) = Ok (line_title l).
Proof.
  intros l. rewrite splitn2_space. unfold line_file, line_title.
  pose proof (split_space_spec l) as S. destruct (split_space l) as [f [t|]]; cbn; [split; reflexivity|].
  rewrite (proj2 (S _ _ eq_refl)). split; reflexivity.
Qed.

Lemma sprintf1_s_string : forall pre post s, no_percent pre -> no_percent post ->
  sprintf1_s (pre ++ b "%s" ++ post) s = Ok (pre ++ s ++ post).
Proof. intros. unfold sprintf1_s. rewrite sprintf1_string by assumption. reflexivity. Qed.

(** the seven writes of convOne to its buffer, regrouped; stated about variables: with the
    literals in place every regrouping step would carry them along *)
Lemma section_writes : forall h3 title nn fence n content g1 name g2 g3 g4 : bytes,
  bb_string (bb_write (bb_write (bb_write (bb_write (bb_write (bb_write (bb_write bb_new
    (h3 ++ title ++ nn)) (fence ++ n)) content) (n ++ fence ++ nn)) (g1 ++ name ++ g2)) (g3 ++ name ++ g4)) nn)
  = h3 ++ title ++ nn ++ fence ++ n ++ content ++ n ++ fence ++ nn ++
    g1 ++ name ++ (g2 ++ g3) ++ name ++ g4 ++ nn.
Proof. intros. unfold bb_string, bb_write, bb_new. rewrite <- !app_assoc. reflexivity. Qed.

Section Proofs.
  Variable fs : bytes -> option bytes.
  Variable path_join : bytes -> bytes -> bytes.

  Notation convOne := (convOne fs path_join).
  Notation render_readme := (render_readme fs path_join).
  Notation readable := (readable fs path_join).

  Definition file_content (dir line : bytes) : bytes :=
    match fs (path_join dir (line_file line)) with Some c => c | None => [] end.

  Definition section_of (dir line : bytes) : bytes :=
    section (line_title line) (line_file line) (file_content dir line).

  Theorem convOne_spec : forall dir line,
    convOne dir line =
    match fs (path_join dir (line_file line)) with
    | None => Panic (b "Can't open file " ++ line_file line)
    | Some content => Ok (section (line_title line) (line_file line) content)
    end.
  Proof.
    intros dir line. destruct (columns_head_last line) as [Hh Hl].
    unfold SampleMd.convOne. rewrite Hh, Hl. cbn [obind]. unfold Pipe.
    destruct (fs (path_join dir (line_file line))) as [content|]; [|reflexivity].
    (* the three formats are text around one %s *)
    rewrite (sprintf1_s_string (b "### ") [nl; nl]), (sprintf1_s_string (b "generated go: [") (b "]")),
      (sprintf1_s_string (b "(./") (b ")")) by reflexivity.
    cbn [obind]. f_equal. unfold section, gen_name. rewrite <- (app_assoc (b "gen_")).
    exact (section_writes (b "### ") _ [nl; nl] (b "```") [nl] content
             (b "generated go: [") _ (b "]") (b "(./") (b ")")).
  Qed.

  Lemma convOne_readable : forall dir line, readable dir line ->
    convOne dir line = Ok (section_of dir line).
  Proof.
    intros dir line R. rewrite convOne_spec. unfold section_of, file_content.
    unfold SampleMd.readable in R. destruct (fs (path_join dir (line_file line))); [reflexivity|congruence].
  Qed.
  Lemma convOne_unreadable : forall dir line, ~ readable dir line ->
    convOne dir line = Panic (b "Can't open file " ++ line_file line).
  Proof.
    intros dir line R. rewrite convOne_spec. unfold SampleMd.readable in R.
    destruct (fs (path_join dir (line_file line))); [|reflexivity]. exfalso. apply R. discriminate.
  Qed.

  (** * slice.Map of a function that may panic *)
  Lemma map_out_ok : forall (f : bytes -> outcome bytes) (g : bytes -> bytes) l,
    (forall x, In x l -> f x = Ok (g x)) -> map_out f l = Ok (map g l).
  Proof.
    induction l as [|x r IH]; intro H; [reflexivity|].
    cbn [map_out map]. rewrite (H x) by (left; reflexivity). cbn [obind].
    rewrite IH by (intros y Hy; apply H; right; exact Hy). reflexivity.
  Qed.

  Lemma map_out_first_panic : forall (f : bytes -> outcome bytes) (g : bytes -> bytes) pre x post m,
    (forall y, In y pre -> f y = Ok (g y)) -> f x = Panic m ->
    map_out f (pre ++ x :: post) = Panic m.
  Proof.
    induction pre as [|y pre IH]; intros x post m H Hx.
    - cbn. rewrite Hx. reflexivity.
    - cbn [app map_out]. rewrite (H y) by (left; reflexivity). cbn [obind].
      rewrite (IH x post m) by (try (intros z Hz; apply H; right; exact Hz); exact Hx). reflexivity.
  Qed.

  Theorem readme_is_header_then_sections : forall dir content,
    (forall line, In line (entries content) -> readable dir line) ->
    render_readme dir content = Ok (header ++ join [nl] (map (section_of dir) (entries content))).
  Proof.
    intros dir content H. unfold SampleMd.render_readme. fold (entries content).
    rewrite (map_out_ok _ (section_of dir)).
    - cbn [obind]. rewrite concat_is_join. reflexivity.
    - intros line Hin. apply convOne_readable, H, Hin.
  Qed.

  (** the first unreadable entry stops the tool with its name; nothing is rendered *)
  Theorem first_unreadable_panics : forall dir content pre line post,
    entries content = pre ++ line :: post ->
    (forall l, In l pre -> readable dir l) -> ~ readable dir line ->
    render_readme dir content = Panic (b "Can't open file " ++ line_file line).
  Proof.
    intros dir content pre line post E Hpre Hline. unfold SampleMd.render_readme. fold (entries content).
    rewrite E, (map_out_first_panic _ (section_of dir) pre line post (b "Can't open file " ++ line_file line)).
    - reflexivity.
    - intros y Hy. apply convOne_readable, Hpre, Hy.
    - apply convOne_unreadable, Hline.
  Qed.

  Lemma readable_dec : forall dir line, {readable dir line} + {~ readable dir line}.
  Proof.
    intros dir line. unfold SampleMd.readable.
    destruct (fs (path_join dir (line_file line))); [left; discriminate|right; intro H; apply H; reflexivity].
  Qed.

  Lemma first_unreadable : forall dir l,
    (forall x, In x l -> readable dir x) \/
    exists pre x post, l = pre ++ x :: post /\ (forall y, In y pre -> readable dir y) /\ ~ readable dir x.
  Proof.
    intros dir. induction l as [|a l IH].
    - left. intros x [].
    - destruct (readable_dec dir a) as [Ra|Ra].
      + destruct IH as [IH|[pre [x [post [E [Hp Hx]]]]]].
        * left. intros x [->|Hin]; auto.
        * right. exists (a :: pre), x, post. split; [cbn; congruence|]. split; [|exact Hx].
          intros y [->|Hin]; auto.
      + right. exists [], a, l. split; [reflexivity|]. split; [intros y []|exact Ra].
  Qed.

  Theorem unreadable_fails : forall dir content,
    (exists m, render_readme dir content = Panic m) <->
    (exists line, In line (entries content) /\ ~ readable dir line).
  Proof.
    intros dir content. split.
    - intros [m Hm]. destruct (first_unreadable dir (entries content)) as [All|[pre [x [post [E [Hp Hx]]]]]].
      + rewrite readme_is_header_then_sections in Hm by exact All. discriminate.
      + exists x. split; [rewrite E; apply in_or_app; right; left; reflexivity|exact Hx].
    - intros [line [Hin Hl]].
      destruct (first_unreadable dir (entries content)) as [All|[pre [x [post [E [Hp Hx]]]]]].
      + exfalso. apply Hl. apply All. exact Hin.
      + eexists. eapply first_unreadable_panics; eauto.
  Qed.

  Theorem order_preserved : forall dir content l1 x l2 y l3,
    (forall line, In line (entries content) -> readable dir line) ->
    entries content = l1 ++ x :: l2 ++ y :: l3 ->
    exists pre mid post,
      render_readme dir content =
      Ok (header ++ pre ++ section_of dir x ++ mid ++ section_of dir y ++ post).
  Proof.
    intros dir content l1 x l2 y l3 H E.
    rewrite readme_is_header_then_sections by exact H. rewrite E.
    rewrite map_app. cbn [map]. rewrite map_app. cbn [map].
    destruct (join_two [nl] (map (section_of dir) l1) (section_of dir x) (map (section_of dir) l2)
                (section_of dir y) (map (section_of dir) l3)) as (pre & mid & post & ->).
    exists pre, mid, post. reflexivity.
  Qed.
End Proofs.

Section HistoryProofs.
  Variable path_join : bytes -> bytes -> bytes.

  Theorem run_overwrites : forall fs before dir content,
    (forall line, In line (entries content) -> readable fs path_join dir line) ->
    tool_run path_join fs before dir content =
    Some (header ++ join [nl] (map (section_of fs path_join dir) (entries content))).
  Proof.
    intros fs before dir content H. unfold tool_run.
    rewrite readme_is_header_then_sections by exact H. reflexivity.
  Qed.

  Theorem run_failing_keeps : forall fs before dir content line,
    In line (entries content) -> ~ readable fs path_join dir line ->
    tool_run path_join fs before dir content = before.
  Proof.
    intros fs before dir content line Hin Hl. unfold tool_run.
    destruct (proj2 (unreadable_fails fs path_join dir content)) as [m Hm]; [eauto|].
    rewrite Hm. reflexivity.
  Qed.

  Lemma tool_history_app : forall h1 h2 before dir,
    tool_history path_join before dir (h1 ++ h2) =
    tool_history path_join (tool_history path_join before dir h1) dir h2.
  Proof.
    induction h1 as [|[fs c] h1 IH]; intros h2 before dir; [reflexivity|]. cbn. apply IH.
  Qed.

  (** after any history, README.md is the rendering of the LAST run if all its files were
      readable, and otherwise what the history before that run left *)
  Theorem history_last_run : forall h fs content before dir,
    ((forall line, In line (entries content) -> readable fs path_join dir line) ->
     tool_history path_join before dir (h ++ [(fs, content)]) =
     Some (header ++ join [nl] (map (section_of fs path_join dir) (entries content)))) /\
    ((exists line, In line (entries content) /\ ~ readable fs path_join dir line) ->
     tool_history path_join before dir (h ++ [(fs, content)]) = tool_history path_join before dir h).
  Proof.
    intros h fs content before dir. rewrite tool_history_app. cbn [tool_history]. split.
    - intro H. apply run_overwrites. exact H.
    - intros [line [Hin Hl]]. eapply run_failing_keeps; eauto.
  Qed.
End HistoryProofs.
