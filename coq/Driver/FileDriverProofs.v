(** C16, driver half: exit 0 means every requested output is there and complete; a failure leaves
    the offender's output alone and the earlier outputs intact. *)
From Coq Require Import List Arith Bool String Ascii Lia.
From FoVerif Require Import Driver.FileDriver.
Import ListNotations.

Section DriverProofs.
  Variable state : Type.
  Variable translate : state -> content -> option (state * content).
  Variable is_fo : path -> bool.
  Variable dest : path -> path.

  Notation step := (step state translate is_fo dest).
  Notation run := (transpile_files state translate is_fo dest).


  Lemma write_files : forall fs p c fs',
    write fs p c = Some fs' ->
    files fs' p = Some c /\ (forall q, q <> p -> files fs' q = files fs q) /\
    is_dir fs' = is_dir fs /\ unwritable fs' = unwritable fs.
  Proof.
    intros fs p c fs' H. unfold write in H.
    destruct (is_dir fs p || unwritable fs p); [discriminate|].
    inversion H; subst; cbn. split; [rewrite String.eqb_refl; reflexivity|].
    split; [|split; reflexivity].
    intros q Hq. destruct (String.eqb q p) eqn:E; [apply String.eqb_eq in E; contradiction|reflexivity].
  Qed.

  Lemma step_ok_spec : forall st fs f st' fs',
    step st fs f = inl (st', fs') ->
    exists src out, read fs f = Some src /\ translate st src = Some (st', out) /\
      ((is_fo f = true /\ write fs (dest f) out = Some fs') \/ (is_fo f = false /\ fs' = fs)).
  Proof.
    intros st fs f st' fs' H. unfold FileDriver.step in H.
    destruct (read fs f) as [src|]; [|discriminate].
    destruct (translate st src) as [[st1 out]|] eqn:Et; [|discriminate].
    exists src, out. split; [reflexivity|].
    destruct (is_fo f) eqn:Ef.
    - destruct (write fs (dest f) out) as [fs1|] eqn:Ew; [|discriminate].
      inversion H; subst. split; [exact Et|]. left. split; reflexivity.
    - inversion H; subst. split; [exact Et|]. right. split; reflexivity.
  Qed.

  (** C16: a .foi argument (anything that is not a .fo) writes nothing *)
  Theorem foi_writes_nothing : forall st fs f st' fs',
    is_fo f = false -> step st fs f = inl (st', fs') -> fs' = fs.
  Proof.
    intros st fs f st' fs' Hf H. apply step_ok_spec in H.
    destruct H as (src & out & _ & _ & [[Hx _]|[_ He]]); [congruence|exact He].
  Qed.

  Lemma step_untouched : forall st fs f st' fs' p,
    step st fs f = inl (st', fs') -> (is_fo f = true -> dest f <> p) ->
    files fs' p = files fs p.
  Proof.
    intros st fs f st' fs' p H Hp. apply step_ok_spec in H.
    destruct H as (src & out & _ & _ & [[Hf Hw]|[_ He]]); [|subst; reflexivity].
    apply write_files in Hw. destruct Hw as (_ & Hother & _).
    apply Hother. intros E. apply (Hp Hf). symmetry. exact E.
  Qed.


  Lemma run_cons : forall f args st fs,
    run (f :: args) st fs =
    match step st fs f with
    | inr why => Failed 0 why st fs
    | inl (st', fs') =>
      match run args st' fs' with
      | Done a b => Done a b
      | Failed k why a b => Failed (S k) why a b
      end
    end.
  Proof. reflexivity. Qed.

  Lemma run_app : forall a b st fs,
    run (a ++ b) st fs =
    match run a st fs with
    | Done st1 fs1 =>
      match run b st1 fs1 with
      | Done x y => Done x y
      | Failed k w x y => Failed (List.length a + k) w x y
      end
    | Failed k w x y => Failed k w x y
    end.
  Proof.
    induction a as [|f a IH]; intros b st fs; cbn [app List.length].
    - cbn [transpile_files run_with]. destruct (run b st fs); reflexivity.
    - rewrite !run_cons. destruct (step st fs f) as [[st1 fs1]|w]; [|reflexivity].
      rewrite IH. destruct (run a st1 fs1) as [st2 fs2|k w x y]; [|reflexivity].
      destruct (run b st2 fs2); reflexivity.
  Qed.

  Lemma done_untouched {args} : forall {st fs st' fs' p},
    run args st fs = Done st' fs' ->
    (forall g, In g args -> is_fo g = true -> dest g <> p) -> files fs' p = files fs p.
  Proof.
    induction args as [|f args IH]; intros st fs st' fs' p H Hp; [inversion H; reflexivity|].
    rewrite run_cons in H. destruct (step st fs f) as [[st1 fs1]|w] eqn:Es; [|discriminate].
    destruct (run args st1 fs1) as [x y|k w x y] eqn:Er; [|discriminate]. inversion H; subst x y.
    rewrite (IH _ _ _ _ p Er) by (intros g Hg; apply Hp; right; exact Hg).
    eapply step_untouched; [exact Es|]. apply Hp. left. reflexivity.
  Qed.

  Lemma in_firstn_nth : forall {A} k (l : list A) g,
    In g (firstn k l) -> exists n, n < k /\ nth_error l n = Some g.
  Proof.
    induction k as [|k IH]; intros [|a l] g H; cbn [firstn In] in H; try contradiction.
    destruct H as [->|H]; [exists 0; split; [lia|reflexivity]|].
    destruct (IH l g H) as (n & Hn & E). exists (S n). split; [lia|exact E].
  Qed.

  (** Once the first [k] arguments have gone through, the destination of a .fo argument among
      them holds exactly the translation of that file (as read at that moment) in the state left
      by the arguments before it, unless another of the [k] arguments wrote there later. *)
  Lemma prefix_outputs_written {args} : forall {k st0 fs0 st' fs'},
    run (firstn k args) st0 fs0 = Done st' fs' ->
    forall i f, i < k -> nth_error args i = Some f -> is_fo f = true ->
    (forall j g, i < j < k -> nth_error args j = Some g -> is_fo g = true -> dest g <> dest f) ->
    exists st_i fs_i src st_i1 out,
      run (firstn i args) st0 fs0 = Done st_i fs_i /\
      read fs_i f = Some src /\ translate st_i src = Some (st_i1, out) /\
      files fs' (dest f) = Some out.
  Proof.
    induction args as [|a args IH]; intros k st0 fs0 st' fs' Hrun i f Hik Hi Hfo Hlater;
      [destruct i; discriminate|].
    destruct k as [|k]; [lia|]. cbn [firstn] in Hrun. rewrite run_cons in Hrun.
    destruct (step st0 fs0 a) as [[st1 fs1]|w] eqn:Es; [|discriminate].
    destruct (run (firstn k args) st1 fs1) as [x y|n w x y] eqn:Er; [|discriminate].
    inversion Hrun; subst x y. clear Hrun.
    destruct i as [|i]; cbn [nth_error firstn] in *.
    - inversion Hi; subst a.
      apply step_ok_spec in Es. destruct Es as (src & out & Hr & Ht & [[_ Hw]|[Hx _]]); [|congruence].
      exists st0, fs0, src, st1, out. split; [reflexivity|]. split; [exact Hr|]. split; [exact Ht|].
      rewrite (done_untouched Er); [apply write_files in Hw; apply Hw|].
      intros g Hg Hgfo. apply in_firstn_nth in Hg. destruct Hg as (n & Hn & Hg).
      apply (Hlater (S n) g); [lia|exact Hg|exact Hgfo].
    - destruct (IH k _ _ _ _ Er i f ltac:(lia) Hi Hfo) as (st_i & fs_i & src & st_i1 & out & Hpre & H).
      + intros j g Hj. apply (Hlater (S j) g). lia.
      + exists st_i, fs_i, src, st_i1, out. split; [|exact H]. rewrite run_cons, Es, Hpre. reflexivity.
  Qed.

  (** C16: exit 0 implies that for every .fo argument the file system maps its destination to
      exactly the translation of that file (as read at that moment) in the state left by the
      earlier arguments — provided no later argument has the same destination, in which case the
      later one is what is found there *)
  Theorem exit0_implies_all_written : forall args st0 fs0 st' fs',
    run args st0 fs0 = Done st' fs' ->
    forall i f, nth_error args i = Some f -> is_fo f = true ->
    (forall j g, i < j -> nth_error args j = Some g -> is_fo g = true -> dest g <> dest f) ->
    exists st_i fs_i src st_i1 out,
      run (firstn i args) st0 fs0 = Done st_i fs_i /\
      read fs_i f = Some src /\ translate st_i src = Some (st_i1, out) /\
      files fs' (dest f) = Some out.
  Proof.
    intros args st0 fs0 st' fs' Hrun i f Hi Hfo Hlater. rewrite <- (firstn_all args) in Hrun.
    eapply prefix_outputs_written; eauto; [apply nth_error_Some; congruence|].
    intros j g [Hij _]. exact (Hlater j g Hij).
  Qed.

  Lemma failure_spec {args} : forall {st0 fs0 k why st_k fs_k},
    run args st0 fs0 = Failed k why st_k fs_k ->
    exists f, nth_error args k = Some f /\
              run (firstn k args) st0 fs0 = Done st_k fs_k /\
              step st_k fs_k f = inr why.
  Proof.
    induction args as [|a args IH]; intros st0 fs0 k why st_k fs_k H; [discriminate|].
    rewrite run_cons in H. destruct (step st0 fs0 a) as [[st1 fs1]|w] eqn:Es.
    - destruct (run args st1 fs1) as [x y|k' w x y] eqn:Er; [discriminate|].
      inversion H; subst. clear H.
      destruct (IH _ _ _ _ _ _ Er) as (f & Hn & Hpre & Hstep).
      exists f. split; [exact Hn|]. split; [|exact Hstep].
      cbn [firstn]. rewrite run_cons, Es, Hpre. reflexivity.
    - inversion H; subst. exists a. split; [reflexivity|]. split; [reflexivity|exact Es].
  Qed.

  (** C16: on failure nothing is written for the offending argument — the final file system is the
      one left by the arguments before it; in particular the offender's destination holds what it
      held before fc started unless an earlier argument has the same destination *)
  Theorem failure_writes_nothing_for_offender : forall args st0 fs0 k why st_k fs_k,
    run args st0 fs0 = Failed k why st_k fs_k ->
    exists f, nth_error args k = Some f /\
              run (firstn k args) st0 fs0 = Done st_k fs_k /\
              step st_k fs_k f = inr why /\
              ((forall g, In g (firstn k args) -> is_fo g = true -> dest g <> dest f) ->
               files fs_k (dest f) = files fs0 (dest f)).
  Proof.
    intros args st0 fs0 k why st_k fs_k H.
    destruct (failure_spec H) as (f & Hn & Hpre & Hstep).
    exists f. repeat (split; [assumption|]).
    exact (done_untouched Hpre).
  Qed.

  (** C16: on failure at argument [k] the outputs of the arguments before [k] are written and
      complete, and every path that is not the destination of one of them (the outputs of the later
      arguments among them) is as it was *)
  Theorem earlier_outputs_intact : forall args st0 fs0 k why st_k fs_k,
    run args st0 fs0 = Failed k why st_k fs_k ->
    (forall i f, i < k -> nth_error args i = Some f -> is_fo f = true ->
       (forall j g, i < j < k -> nth_error args j = Some g -> is_fo g = true -> dest g <> dest f) ->
       exists st_i fs_i src st_i1 out,
         run (firstn i args) st0 fs0 = Done st_i fs_i /\
         read fs_i f = Some src /\ translate st_i src = Some (st_i1, out) /\
         files fs_k (dest f) = Some out)
    /\ (forall p, (forall g, In g (firstn k args) -> is_fo g = true -> dest g <> p) ->
                  files fs_k p = files fs0 p).
  Proof.
    intros args st0 fs0 k why st_k fs_k H.
    destruct (failure_spec H) as (_ & _ & Hpre & _).
    split; [exact (prefix_outputs_written Hpre)|].
    intros p. exact (done_untouched Hpre).
  Qed.

  Lemma exit_code_zero_iff : forall r, exit_code state r = 0 <-> exists st fs, r = Done st fs.
  Proof.
    intros r. split.
    - destruct r as [st fs|k w st fs]; [eauto|]. destruct w; discriminate.
    - intros (st & fs & ->). reflexivity.
  Qed.
End DriverProofs.


(** before commit 937260d the result of sys.WriteFile was dropped: with an unwritable destination fc
    exited 0 and the requested file is not there *)
Theorem write_failure_exit0_old_refuted :
  exists (translate : unit -> content -> option (unit * content)) (fs0 : fsys) (args : list path),
    match transpile_files_old unit translate fo_is_fo fo_dest args tt fs0 with
    | Done _ fs' => fo_is_fo "x.fo"%string = true /\ In "x.fo"%string args /\
                    files fs' (fo_dest "x.fo"%string) = None
    | Failed _ _ _ _ => False
    end.
Proof.
  exists (fun _ src => Some (tt, src)).
  exists {| files := fun p => if String.eqb p "x.fo"%string then Some [1; 2; 3] else None;
            is_dir := fun p => String.eqb p "gen_x.go"%string;
            unwritable := fun _ => false |}.
  exists ["x.fo"%string].
  vm_compute. split; [reflexivity|]. split; [left; reflexivity|reflexivity].
Qed.
