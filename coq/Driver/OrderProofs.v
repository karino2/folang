(** C05: the map-building mechanisms add a list of entries in which a key never has two values;
    the result of that does not depend on the order ([add_all_perm]), and piRegAll, eqsUnion and
    rsRegisterNewEI are instances. Record lookup is different: the head of a sorted list without
    equal names is the same for every permutation and every sorting routine. *)
From Coq Require Import List Arith Bool Permutation Lia Sorted.
From FoVerif Require Import Driver.Order.
Import ListNotations.

Lemma NoDup_map_inj {A B} (f : A -> B) (l : list A) :
  NoDup (map f l) -> forall x y, In x l -> In y l -> f x = f y -> x = y.
Proof.
  induction l as [|a l IH]; cbn [map]; intros Hnd x y Hx Hy E; [destruct Hx|].
  inversion Hnd as [|? ? Hni Hnd']; subst.
  destruct Hx as [<-|Hx], Hy as [<-|Hy]; [reflexivity| | |exact (IH Hnd' x y Hx Hy E)];
    destruct Hni; [rewrite E|rewrite <- E]; apply in_map; assumption.
Qed.

Section Map.
  Variable V : Type.
  Notation amap := (amap V).

  Lemma get_add k' k v (m : amap) : get k' (add k v m) = if Nat.eqb k' k then Some v else get k' m.
  Proof.
    induction m as [|[k0 v0] m IH]; cbn [add get]; [reflexivity|].
    destruct (Nat.eqb k k0) eqn:E; cbn [get].
    - apply Nat.eqb_eq in E. subst k0. destruct (Nat.eqb k' k); reflexivity.
    - destruct (Nat.eqb k' k0) eqn:E'; [|exact IH].
      apply Nat.eqb_eq in E'. subst k0. rewrite Nat.eqb_sym, E. reflexivity.
  Qed.

  Lemma add_all_cons k v (l : list (nat * V)) (m : amap) : add_all ((k, v) :: l) m = add_all l (add k v m).
  Proof. reflexivity. Qed.

  Lemma get_add_all_notin (l : list (nat * V)) : forall (m : amap) k,
    ~ In k (map fst l) -> get k (add_all l m) = get k m.
  Proof.
    induction l as [|[k0 v0] l IH]; intros m k Hni; [reflexivity|]. cbn [map fst In] in Hni.
    rewrite add_all_cons, IH, get_add by tauto.
    destruct (Nat.eqb k k0) eqn:E; [apply Nat.eqb_eq in E; subst; tauto|reflexivity].
  Qed.

  Definition functional (l : list (nat * V)) : Prop :=
    forall k v1 v2, In (k, v1) l -> In (k, v2) l -> v1 = v2.

  Lemma get_add_all_in (l : list (nat * V)) : forall (m : amap) k v,
    functional l -> In (k, v) l -> get k (add_all l m) = Some v.
  Proof.
    induction l as [|[k0 v0] l IH]; intros m k v Hf Hin; [destruct Hin|].
    rewrite add_all_cons.
    destruct (in_dec Nat.eq_dec k (map fst l)) as [Hk|Hk].
    - apply in_map_iff in Hk. destruct Hk as ([k' v'] & E & Hin'). cbn in E; subst k'.
      assert (v' = v) by (apply (Hf k); [now right|exact Hin]). subst v'.
      apply IH; [|exact Hin']. intros k1 a b Ha Hb. apply (Hf k1); now right.
    - rewrite get_add_all_notin by exact Hk.
      destruct Hin as [E|Hin]; [|destruct Hk; exact (in_map fst _ _ Hin)].
      inversion E; subst. rewrite get_add, Nat.eqb_refl. reflexivity.
  Qed.

  (** the order in which a functional list of entries is added does not matter (nor does the
      target, beyond what it maps each key to) *)
  Theorem add_all_perm (l1 l2 : list (nat * V)) (m1 m2 : amap) :
    Permutation l1 l2 -> functional l1 -> (forall k, get k m1 = get k m2) ->
    forall k, get k (add_all l1 m1) = get k (add_all l2 m2).
  Proof.
    intros Hp Hf Hm k.
    assert (Hf2 : functional l2).
    { intros k0 a b Ha Hb. apply (Hf k0); eapply Permutation_in; try eassumption; now apply Permutation_sym. }
    destruct (in_dec Nat.eq_dec k (map fst l1)) as [Hk|Hk].
    - apply in_map_iff in Hk. destruct Hk as ([k' v] & E & Hin). cbn in E; subst k'.
      rewrite (get_add_all_in l1 m1 k v Hf Hin).
      symmetry. apply get_add_all_in; [exact Hf2|]. eapply Permutation_in; eassumption.
    - rewrite !get_add_all_notin; [apply Hm| |exact Hk].
      intros Hin. apply Hk. eapply Permutation_in; [apply Permutation_sym, Permutation_map, Hp|exact Hin].
  Qed.

  Lemma nodup_keys_functional (l : list (nat * V)) : NoDup (map fst l) -> functional l.
  Proof.
    intros Hnd k a b Ha Hb. pose proof (NoDup_map_inj fst l Hnd _ _ Ha Hb eq_refl) as E. congruence.
  Qed.

  Lemma const_functional (v : V) (ks : list nat) : functional (map (fun k => (k, v)) ks).
  Proof.
    intros k a b Ha Hb. apply in_map_iff in Ha, Hb.
    destruct Ha as (x & Ex & _), Hb as (y & Ey & _). congruence.
  Qed.

  Lemma get_add_all_const (v : V) (ks : list nat) (m : amap) k :
    get k (add_all (map (fun k => (k, v)) ks) m) = if in_dec Nat.eq_dec k ks then Some v else get k m.
  Proof.
    destruct (in_dec Nat.eq_dec k ks) as [H|H].
    - apply get_add_all_in; [apply const_functional|]. apply in_map_iff. eauto.
    - apply get_add_all_notin. rewrite map_map. cbn [fst]. rewrite map_id. exact H.
  Qed.
End Map.
Arguments functional {V}.

(** piRegAll *)
Theorem pi_reg_all_order_independent {V} (full_name : nat -> nat) (e1 e2 : list (nat * V)) scope :
  (forall a b, full_name a = full_name b -> a = b) ->
  NoDup (map fst e1) -> Permutation e1 e2 ->
  forall k, get k (pi_reg_all full_name e1 scope) = get k (pi_reg_all full_name e2 scope).
Proof.
  intros Hinj Hnd Hp. apply add_all_perm; [apply Permutation_map, Hp| |reflexivity].
  apply nodup_keys_functional. rewrite map_map. cbn [fst].
  rewrite <- (map_map fst full_name). apply FinFun.Injective_map_NoDup; [exact Hinj|exact Hnd].
Qed.

(** eqsUnion *)
Theorem eqs_union_order_independent (a1 a2 b1 b2 : list nat) :
  Permutation a1 a2 -> Permutation b1 b2 ->
  forall k, get k (eqs_union a1 b1) = get k (eqs_union a2 b2).
Proof.
  intros Ha Hb.
  apply add_all_perm; [apply Permutation_map, Hb|apply const_functional|].
  apply add_all_perm; [apply Permutation_map, Ha|apply const_functional|reflexivity].
Qed.

(** membership: the union contains exactly the keys of both *)
Theorem eqs_union_spec (a b : list nat) k :
  get k (eqs_union a b) = if in_dec Nat.eq_dec k (a ++ b) then Some true else None.
Proof.
  unfold eqs_union. rewrite !get_add_all_const. cbn [get].
  destruct (in_dec Nat.eq_dec k b), (in_dec Nat.eq_dec k a), (in_dec Nat.eq_dec k (a ++ b)) as [H|H];
    try reflexivity; rewrite in_app_iff in H; tauto.
Qed.

(** rsRegisterNewEI *)
Theorem rs_register_order_independent {V} (ei : V) (m1 m2 : list nat) resolver :
  Permutation m1 m2 ->
  forall k, get k (rs_register_new_ei ei m1 resolver) = get k (rs_register_new_ei ei m2 resolver).
Proof.
  intros Hp. apply add_all_perm; [apply Permutation_map, Hp|apply const_functional|reflexivity].
Qed.

Definition name_le (a b : recfac) : Prop := r_name a <= r_name b.

(** the head of a sorted list is below every element; two heads below each other have the same
    name, and are the same record when names identify records *)
Lemma sorted_perm_same_head (l1 l2 : list recfac) :
  Sorted name_le l1 -> Sorted name_le l2 ->
  (forall x y, In x l1 -> In y l1 -> r_name x = r_name y -> x = y) ->
  Permutation l1 l2 -> hd_error l1 = hd_error l2.
Proof.
  assert (Hhd : forall x l y, Sorted name_le (x :: l) -> In y (x :: l) -> r_name x <= r_name y).
  { intros x l y S [<-|Hy]; [reflexivity|].
    apply Sorted_extends in S; [|intros a b c; unfold name_le; lia].
    rewrite Forall_forall in S. exact (S y Hy). }
  intros S1 S2 Hinj Hp.
  destruct l1 as [|x l1], l2 as [|y l2]; cbn [hd_error]; [reflexivity| | |].
  - apply Permutation_nil in Hp. discriminate.
  - apply Permutation_sym, Permutation_nil in Hp. discriminate.
  - assert (Hy : In y (x :: l1)) by (eapply Permutation_in; [apply Permutation_sym, Hp|now left]).
    assert (Hx : In x (y :: l2)) by (eapply Permutation_in; [apply Hp|now left]).
    f_equal. apply Hinj; [now left|exact Hy|]. apply Nat.le_antisymm; eauto.
Qed.

Lemma filter_perm {A} (f : A -> bool) (l1 l2 : list A) : Permutation l1 l2 -> Permutation (filter f l1) (filter f l2).
Proof.
  induction 1 as [|x l1 l2 Hp IH|x y l|l1 l2 l3 H1 IH1 H2 IH2]; cbn.
  - constructor.
  - destruct (f x); [now constructor|exact IH].
  - destruct (f x), (f y); try reflexivity. constructor.
  - eapply Permutation_trans; eassumption.
Qed.

Section RecLookup.
  Variable sort1 sort2 : list recfac -> list recfac.
  Hypothesis sort1_sorted : forall l, Sorted name_le (sort1 l).
  Hypothesis sort1_perm : forall l, Permutation (sort1 l) l.
  Hypothesis sort2_sorted : forall l, Sorted name_le (sort2 l).
  Hypothesis sort2_perm : forall l, Permutation (sort2 l) l.

  (** whatever the enumeration order of the scope's record dictionary and whichever (unstable)
      sorting routine is used, the record a literal resolves to is the same *)
  Theorem rec_lookup_order_independent (e1 e2 : list recfac) fs :
    NoDup (map r_name e1) -> Permutation e1 e2 ->
    rec_lookup sort1 e1 fs = rec_lookup sort2 e2 fs.
  Proof.
    intros Hnd Hp. unfold rec_lookup.
    apply sorted_perm_same_head; [apply sort1_sorted|apply sort2_sorted| |].
    - (* the sorted candidates are records of e1, where names are distinct *)
      assert (Hin : forall x, In x (sort1 (filter (fields_match fs) e1)) -> In x e1).
      { intros x Hx. apply (Permutation_in _ (sort1_perm _)), filter_In in Hx. apply Hx. }
      intros x y Hx Hy. apply (NoDup_map_inj r_name e1 Hnd); apply Hin; assumption.
    - eapply Permutation_trans; [apply sort1_perm|].
      eapply Permutation_trans; [apply filter_perm, Hp|apply Permutation_sym, sort2_perm].
  Qed.
End RecLookup.

(** the repaired defect: first match in enumeration order depends on the order *)
Theorem rec_lookup_old_order_dependent_refuted :
  exists e1 e2 fs, Permutation e1 e2 /\ NoDup (map r_name e1) /\ rec_lookup_old e1 fs <> rec_lookup_old e2 fs.
Proof.
  exists [mkRec 1 [10; 11]; mkRec 2 [10; 11]; mkRec 3 [10; 11]],
         [mkRec 3 [10; 11]; mkRec 1 [10; 11]; mkRec 2 [10; 11]], [10; 11].
  split; [|split].
  - exact (Permutation_app_comm [_; _] [_]).
  - cbn. repeat constructor; cbn; intuition; try discriminate.
  - vm_compute. discriminate.
Qed.

(** the oracle's concrete sort satisfies the hypotheses *)
Lemma insert_rec_perm r l : Permutation (insert_rec r l) (r :: l).
Proof.
  induction l as [|x l IH]; cbn; [reflexivity|].
  destruct (r_name r <=? r_name x); [reflexivity|].
  eapply Permutation_trans; [apply perm_skip, IH|apply perm_swap].
Qed.
Lemma isort_perm l : Permutation (isort l) l.
Proof.
  induction l as [|x l IH]; cbn; [constructor|].
  eapply Permutation_trans; [apply insert_rec_perm|now constructor].
Qed.
Lemma insert_rec_sorted r l : Sorted name_le l -> Sorted name_le (insert_rec r l).
Proof.
  induction 1 as [|x l S IH Hd]; cbn [insert_rec]; [repeat constructor|].
  destruct (r_name r <=? r_name x) eqn:E.
  - apply Nat.leb_le in E. repeat constructor; assumption.
  - apply Nat.leb_gt in E. constructor; [exact IH|].
    destruct Hd as [|y l Hxy]; cbn [insert_rec]; [|destruct (r_name r <=? r_name y)];
      constructor; unfold name_le; lia || exact Hxy.
Qed.
Lemma isort_sorted l : Sorted name_le (isort l).
Proof. induction l as [|x l IH]; cbn; [constructor|now apply insert_rec_sorted]. Qed.
