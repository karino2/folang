(** C07: the emitted record of a root statement is a function of the statement and of what its
    references look up ([frame]); an accepted statement's references were declared before it, so
    in two accepted histories whose parts before it agree on what a name means it is emitted
    identically ([prefix_independence]; [history_independence] is the case of one universe for both). Files only cut the one history the parse state runs through. *)
From Coq Require Import List Arith Bool Lia.
From FoVerif Require Import Driver.Hist.
Import ListNotations.

Definition agree_on (ns : list nat) (s1 s2 : scope) : Prop :=
  forall n, In n ns -> lookup n s1 = lookup n s2.

(** what is emitted for d depends only on d and on the declarations it refers to *)
Theorem frame s1 s2 d : agree_on (d_refs d) s1 s2 -> emit s1 d = emit s2 d.
Proof.
  intros H. unfold emit. f_equal. apply map_ext_in. exact H.
Qed.

Theorem frame_accept s1 s2 d : agree_on (d_refs d) s1 s2 ->
  (exists r, step s1 d = Some r) <-> (exists r, step s2 d = Some r).
Proof.
  intros H. unfold step.
  assert (E : forallb (declared s1) (d_refs d) = forallb (declared s2) (d_refs d)).
  { apply eq_iff_eq_true. rewrite !forallb_forall. unfold declared.
    split; intros A n Hn; [rewrite <- (H n Hn)|rewrite (H n Hn)]; exact (A n Hn). }
  rewrite E. destruct (forallb (declared s2) (d_refs d)); split; intros [r Hr]; eauto; discriminate.
Qed.

(** a universe of definitions with unique names: the same name always means the same definition *)
Definition consistent (h1 h2 : list def) : Prop :=
  forall d1 d2, In d1 h1 -> In d2 h2 -> d_name d1 = d_name d2 -> d1 = d2.

Lemma lookup_in n s d : lookup n s = Some d -> In d s /\ d_name d = n.
Proof.
  induction s as [|x s IH]; cbn; [discriminate|].
  destruct (Nat.eqb (d_name x) n) eqn:E.
  - intros H; inversion H; subst. split; [now left|now apply Nat.eqb_eq].
  - intros H. destruct (IH H). split; [now right|assumption].
Qed.

Lemma lookup_some_of_in n s : (exists d, In d s /\ d_name d = n) -> exists d, lookup n s = Some d.
Proof.
  induction s as [|x s IH]; intros (d & Hin & Hn); [destruct Hin|]. cbn.
  destruct (Nat.eqb (d_name x) n) eqn:E; [eauto|].
  destruct Hin as [->|Hin]; [rewrite Hn, Nat.eqb_refl in E; discriminate|].
  apply IH. eauto.
Qed.

Lemma run_defs_cons s d ds s' es : run_defs s (d :: ds) = Some (s', es) ->
  forallb (declared s) (d_refs d) = true /\
  exists es', run_defs (d :: s) ds = Some (s', es') /\ es = emit s d :: es'.
Proof.
  cbn [run_defs]. unfold step. destruct (forallb (declared s) (d_refs d)); [|discriminate].
  destruct (run_defs (d :: s) ds) as [[s2 es']|]; [|discriminate].
  intros H. inversion H; subst. eauto.
Qed.

Lemma run_defs_scope ds : forall s s' es, run_defs s ds = Some (s', es) -> s' = rev ds ++ s.
Proof.
  induction ds as [|d ds IH]; intros s s' es H.
  - inversion H; reflexivity.
  - apply run_defs_cons in H. destruct H as (_ & es' & Hr & _).
    rewrite (IH _ _ _ Hr). cbn. now rewrite <- app_assoc.
Qed.

Lemma run_defs_nth {ds} : forall {s s' es}, run_defs s ds = Some (s', es) ->
  forall {k d}, nth_error ds k = Some d -> nth_error es k = Some (emit (rev (firstn k ds) ++ s) d)
              /\ forallb (declared (rev (firstn k ds) ++ s)) (d_refs d) = true.
Proof.
  induction ds as [|d0 ds IH]; intros s s' es H k d Hk; [destruct k; discriminate|].
  apply run_defs_cons in H. destruct H as (Hf & es' & Hr & ->).
  destruct k as [|k]; cbn in Hk |- *.
  - inversion Hk; subst. split; [reflexivity|exact Hf].
  - rewrite <- app_assoc. exact (IH _ _ _ Hr _ _ Hk).
Qed.

Lemma declared_in {n s} : declared s n = true ->
  exists d, lookup n s = Some d /\ In d s /\ d_name d = n.
Proof.
  unfold declared. destruct (lookup n s) as [d|] eqn:L; [|discriminate].
  intros _. exists d. split; [reflexivity|exact (lookup_in _ _ _ L)].
Qed.

Lemma prefix_independence {h1 h2 r1 r2 k1 k2 d} :
  run_defs [] h1 = Some r1 -> run_defs [] h2 = Some r2 ->
  consistent (firstn k1 h1) (firstn k2 h2) ->
  nth_error h1 k1 = Some d -> nth_error h2 k2 = Some d ->
  nth_error (snd r1) k1 = nth_error (snd r2) k2.
Proof.
  destruct r1 as [s1 es1], r2 as [s2 es2]. intros R1 R2 Hc N1 N2.
  destruct (run_defs_nth R1 N1) as [E1 F1]. destruct (run_defs_nth R2 N2) as [E2 F2].
  rewrite app_nil_r in E1, F1, E2, F2.       (* both histories start from the empty scope *)
  cbn [snd]. rewrite E1, E2. f_equal. apply frame. intros n Hn.
  rewrite forallb_forall in F1, F2.
  destruct (declared_in (F1 n Hn)) as (a & -> & I1 & Na).
  destruct (declared_in (F2 n Hn)) as (b & -> & I2 & Nb).
  f_equal. apply Hc; [apply in_rev; exact I1|apply in_rev; exact I2|congruence].
Qed.

(** in any two accepted histories over a consistent universe, a definition that
    occurs in both is emitted identically — this covers insertion, deletion, reordering of unrelated
    definitions, and cutting into files (a cut does not change the sequence of root statements) *)
Theorem history_independence h1 h2 s1 s2 es1 es2 k1 k2 d :
  run_defs [] h1 = Some (s1, es1) -> run_defs [] h2 = Some (s2, es2) ->
  consistent h1 h2 ->
  nth_error h1 k1 = Some d -> nth_error h2 k2 = Some d ->
  nth_error es1 k1 = nth_error es2 k2.
Proof.
  intros R1 R2 Hc. apply (prefix_independence R1 R2).
  intros d1 d2 I1 I2. apply Hc; [rewrite <- (firstn_skipn k1 h1)|rewrite <- (firstn_skipn k2 h2)];
    apply in_or_app; left; assumption.
Qed.

(** cutting a history into files does not change the sequence of root statements the single parse
    state processes: later files see earlier files' declarations *)
Lemma run_defs_app ds1 : forall ds2 s,
  run_defs s (ds1 ++ ds2) =
  match run_defs s ds1 with
  | None => None
  | Some (s1, es1) =>
    match run_defs s1 ds2 with
    | None => None
    | Some (s2, es2) => Some (s2, es1 ++ es2)
    end
  end.
Proof.
  induction ds1 as [|d ds1 IH]; intros ds2 s; cbn.
  - destruct (run_defs s ds2) as [[s2 es2]|]; reflexivity.
  - destruct (step s d) as [[s1 e]|]; [|reflexivity]. rewrite IH.
    destruct (run_defs s1 ds1) as [[s1' es1]|]; [|reflexivity].
    destruct (run_defs s1' ds2) as [[s2 es2]|]; reflexivity.
Qed.

(** the files leave the parse state their concatenation leaves, and are rejected exactly when it is;
    what each file emits is [later_files_see_earlier] *)
Theorem files_are_one_history fs : forall s,
  match run_files s fs, run_defs s (concat (map f_defs fs)) with
  | Some (s1, _), Some (s2, _) => s1 = s2
  | None, None => True
  | _, _ => False
  end.
Proof.
  induction fs as [|f fs IH]; intros s; cbn; [auto|].
  rewrite run_defs_app.
  destruct (run_defs s (f_defs f)) as [[s1 es1]|]; [|exact I].
  specialize (IH s1).
  destruct (run_files s1 fs) as [[s2 outs]|]; destruct (run_defs s1 (concat (map f_defs fs))) as [[s3 es]|]; tauto.
Qed.

(** accept/reject of a multi-file invocation = accept/reject of the concatenated history *)
Theorem files_accept_iff fs s :
  (exists r, run_files s fs = Some r) <-> (exists r, run_defs s (concat (map f_defs fs)) = Some r).
Proof.
  pose proof (files_are_one_history fs s) as H.
  destruct (run_files s fs) as [[s1 outs]|]; destruct (run_defs s (concat (map f_defs fs))) as [[s2 es]|];
    try tauto; split; intros [r Hr]; eauto; discriminate.
Qed.

(** each X.fo argument yields gen_X (in argument order), a .foi argument yields no file *)
Theorem files_written_exactly fs : forall s s' outs, run_files s fs = Some (s', outs) ->
  map fst outs = map f_name (filter f_is_fo fs).
Proof.
  induction fs as [|f fs IH]; intros s s' outs H; cbn in H.
  - inversion H; reflexivity.
  - destruct (run_defs s (f_defs f)) as [[s1 es]|]; [|discriminate].
    destruct (run_files s1 fs) as [[s2 outs']|] eqn:R; [|discriminate].
    inversion H; subst. cbn. destruct (f_is_fo f); cbn; [f_equal|]; exact (IH _ _ _ R).
Qed.

(** the content of gen_X is what the definitions of X emit in the scope left by everything before *)
Theorem later_files_see_earlier fs : forall s s' outs, run_files s fs = Some (s', outs) ->
  forall pre f post, fs = pre ++ f :: post -> f_is_fo f = true ->
  exists s0 s1 es, run_defs s (concat (map f_defs pre)) = Some (s0, es) /\
                   exists es_f, run_defs s0 (f_defs f) = Some (s1, es_f) /\ In (f_name f, es_f) outs.
Proof.
  induction fs as [|f0 fs IH]; intros s s' outs H pre f post E Hfo; [destruct pre; discriminate|].
  cbn in H. destruct (run_defs s (f_defs f0)) as [[s1 es1]|] eqn:R1; [|discriminate].
  destruct (run_files s1 fs) as [[s2 outs']|] eqn:R2; [|discriminate].
  inversion H; subst. destruct pre as [|p pre]; cbn in E; inversion E; subst.
  - exists s, s1, []. cbn. split; [reflexivity|]. exists es1. split; [exact R1|]. rewrite Hfo. now left.
  - destruct (IH _ _ _ R2 pre f post eq_refl Hfo) as (s0 & s1' & es & Hr & es_f & Hf & Hin).
    exists s0, s1', (es1 ++ es). cbn. rewrite run_defs_app, R1, Hr. split; [reflexivity|].
    exists es_f. split; [exact Hf|]. destruct (f_is_fo p); [now right|exact Hin].
Qed.

(** parse-time temporaries of a definition never depend on the history *)
Theorem parse_temps_history_free d : number_parse d = seq 1 (d_ptemps d).
Proof. reflexivity. Qed.

(** emission-time temporaries of a file are consecutive, starting right after the counter left by
    parsing: every definition gets exactly d_etemps fresh numbers, so the same definitions numbered
    from two start counters differ only by a shift of these numbers (a renumbering) *)
Lemma number_emit_spec ds : forall c k d, nth_error ds k = Some d ->
    nth_error (fst (number_emit c ds)) k =
    Some (d_name d, seq (S (c + fold_right (fun d a => d_etemps d + a) 0 (firstn k ds))) (d_etemps d)).
Proof.
  induction ds as [|d ds IH]; intros c; cbn [number_emit].
  - intros [|k] d H; discriminate.
  - specialize (IH (c + d_etemps d)). destruct (number_emit (c + d_etemps d) ds) as [rest c'].
    cbn [fst] in *. intros [|k] d0 H; cbn in H |- *.
    + inversion H; subst. now rewrite Nat.add_0_r.
    + rewrite (IH k d0 H). do 3 f_equal. lia.
Qed.

Theorem emit_temps_are_a_shift ds c1 c2 k d :
  nth_error ds k = Some d ->
  exists base, nth_error (fst (number_emit c1 ds)) k = Some (d_name d, seq (S (c1 + base)) (d_etemps d)) /\
               nth_error (fst (number_emit c2 ds)) k = Some (d_name d, seq (S (c2 + base)) (d_etemps d)).
Proof.
  intros H. exists (fold_right (fun d a => d_etemps d + a) 0 (firstn k ds)).
  split; apply number_emit_spec; exact H.
Qed.
