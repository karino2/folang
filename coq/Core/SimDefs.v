(** C01 — definitions for the simulation proof: well-formedness (the proved fragment), purity of
    partial-application arguments, the value / environment relations. *)
From Coq Require Import List ZArith String Ascii Bool.
From FoVerif Require Import Core.Common Core.Lib Core.MiniFo Core.MiniGo Core.Compile Core.GoRules.
Import ListNotations.
Open Scope list_scope.

(** arguments that may be supplied to a partial application: fc re-evaluates them at every call of the
    closure it emits, so the theorem requires them to be effect-free and re-evaluable *)
Inductive pure : expr -> Prop :=
| P_int z : pure (EInt z)
| P_str s : pure (EStr s)
| P_bool b : pure (EBool b)
| P_var x : pure (EVar x)
| P_lam ps b : pure (ELam ps b)
| P_pap f k u args : pure (ECall f (S k) u args)
(* constructions over such arguments that emit nothing and cannot run out of fuel (they may be stuck) *)
| P_bin op a b : pure a -> pure b -> pure (EBin op a b)
| P_eq neg a b : pure a -> pure b -> pure (EEq neg a b)
| P_not a : pure a -> pure (ENot a)
| P_tuple es : Forall pure es -> pure (ETuple es)
| P_record n decl fs es : Forall pure es -> pure (ERecord n decl fs es)
| P_field e f : pure e -> pure (EField e f)
| P_ctor0 u c : pure (ECtor u c None)
| P_ctor1 u c a : pure a -> pure (ECtor u c (Some a))
| P_slice es : Forall pure es -> pure (ESlice es).

Definition two_or_three (n:nat) : Prop := n = 2 \/ n = 3.

(** a record literal mentions every declared field exactly once, in any order *)
Definition fields_ok (written decl:list string) : Prop :=
  NoDup written /\ NoDup decl /\ List.length written = List.length decl /\ incl written decl.

Section WF.
(** [strict = true] additionally demands [pure] arguments in partial applications *)
Variable strict : bool.
(** [ctor_ok u c p]: union [u] declares case [c], with a payload iff [p] *)
Variable ctor_ok : string -> string -> bool -> Prop.

(** The proved fragment.  Every construct of MiniFo has a rule; the side conditions are:
    binders and referenced variables are not reserved ([_…], [New_…]); both branches of an [if] agree on
    being unit; tuples / destructurings have 2 or 3 components; constructors are declared;
    library functions are source-level ones; a record literal mentions every declared field once. *)
Inductive wfe : expr -> Prop :=
| W_int z : wfe (EInt z)
| W_str s : wfe (EStr s)
| W_bool b : wfe (EBool b)
| W_unit : wfe EUnit
| W_var x : reserved x = false -> wfe (EVar x)
| W_bin op a b : wfe a -> wfe b -> wfe (EBin op a b)
| W_eq neg a b : wfe a -> wfe b -> wfe (EEq neg a b)
| W_not a : wfe a -> wfe (ENot a)
| W_if c bt bf : wfe c -> wfb bt -> wfb bf -> block_unit bt = block_unit bf -> wfe (EIf c bt bf)
| W_ifonly c bt : wfe c -> wfb bt -> wfe (EIfOnly c bt)
| W_lam ps b : Forall (fun p => reserved p = false) ps -> wfb b -> wfe (ELam ps b)
| W_call f u args : reserved f = false -> Forall wfe args -> wfe (ECall f O u args)
| W_pap f k u args :
    reserved f = false -> Forall wfe args -> (strict = true -> Forall pure args) ->
    wfe (ECall f (S k) u args)
| W_ext fn args : src_fn fn = true -> Forall wfe args -> wfe (EExt fn args)
| W_pipevar a f u : wfe a -> reserved f = false -> wfe (EPipeVar a f u)
| W_pipecall a f args u : wfe a -> reserved f = false -> Forall wfe args -> wfe (EPipeCall a f args u)
| W_pipeext a fn args u : wfe a -> src_fn fn = true -> Forall wfe args -> wfe (EPipeExt a fn args u)
| W_tuple es : Forall wfe es -> two_or_three (List.length es) -> wfe (ETuple es)
| W_record name decl fields es :
    Forall wfe es -> fields_ok fields decl -> wfe (ERecord name decl fields es)
| W_field e f : wfe e -> wfe (EField e f)
| W_ctor0 u c : ctor_ok u c false -> wfe (ECtor u c None)
| W_ctor1 u c a : ctor_ok u c true -> wfe a -> wfe (ECtor u c (Some a))
| W_matchu e u arms def :
    wfe e ->
    Forall (fun arm : string * option var * block =>
              match snd (fst arm) with Some x => reserved x = false | None => True end /\ wfb (snd arm)) arms ->
    (forall b, def = Some b -> wfb b) ->
    wfe (EMatchU e u arms def)
| W_matchs e arms bx last :
    wfe e -> Forall (fun arm : string * block => wfb (snd arm)) arms ->
    match bx with Some x => reserved x = false | None => True end -> wfb last ->
    wfe (EMatchS e arms bx last)
| W_slice es : Forall wfe es -> wfe (ESlice es)
| W_interp parts :
    Forall (fun p : string + var => match p with inr x => reserved x = false | inl _ => True end) parts ->
    wfe (EInterp parts)
| W_block b : wfb b -> wfe (EBlock b)
with wfb : block -> Prop :=
| WB_let x e b : reserved x = false -> wfe e -> wfb b -> wfb (BLet x e b)
| WB_destr xs e b :
    Forall (fun p => reserved p = false) xs -> two_or_three (List.length xs) -> wfe e -> wfb b ->
    wfb (BDestr xs e b)
| WB_do e b : wfe e -> wfb b -> wfb (BDo e b)
| WB_ret e u : wfe e -> wfb (BRet e u).

End WF.

Definition ctor_declared (unions:list udecl) (u c:string) (p:bool) : Prop :=
  exists cases, In (u, cases) unions /\ In (c, p) cases.

Definition all_ctor_names (unions:list udecl) : list string :=
  flat_map (fun u : udecl => map (fun c : string * bool => ctor_name (fst u) (fst c)) (snd u)) unions.

Definition wfp (strict:bool) (p:prog) : Prop :=
  NoDup (all_ctor_names (p_unions p)) /\
  Forall (fun d : var * (list var * block) =>
            reserved (fst d) = false /\
            Forall (fun x => reserved x = false) (fst (snd d)) /\
            wfb strict (ctor_declared (p_unions p)) (snd (snd d))) (p_funs p) /\
  wfb strict (ctor_declared (p_unions p)) (p_main p).

(** [wt]: well-formedness (see [wfe]; no typing), which alone does not give the theorem ([compile_correct_full_refuted]);
    [pap_args_pure], the proved fragment: the same, and moreover every argument supplied to a partial application is [pure]
    (note: [()] is not) *)
Definition wt (p:prog) : Prop := wfp false p.
Definition pap_args_pure (p:prog) : Prop := wfp true p.

Section Rel.
Variable d : dialect.
Variable ctor_ok : string -> string -> bool -> Prop.
Notation compile_block := (Compile.compile_block d).
Notation compile_list := (Compile.compile_list d).
Notation nv := (Compile.nv d).

Variable gfuncs : list (var * (list var * list gstmt)).

Notation wfe := (wfe true ctor_ok).
Notation wfb := (wfb true ctor_ok).

Definition equiv (g1 g2:genv) : Prop :=
  forall x, is_tmp x = false -> lookup x g2 = lookup x g1.

(** re-evaluation of a pure argument in a target environment: the closure fc emits for a partial application
    evaluates the supplied arguments again at every call, in its captured environment extended by its own
    parameters [_r0], … (whence [forall env', equiv genv env'] in [VR_pap]) *)
Inductive peval (env:genv) : nat -> expr -> gval -> Prop :=
| PE_int k z : peval env k (EInt z) (GVInt z)
| PE_str k s : peval env k (EStr s) (GVStr s)
| PE_bool k b : peval env k (EBool b) (GVBool b)
| PE_var k x v : glookup gfuncs x env = Some v -> peval env k (EVar x) v
| PE_lam k ps b : peval env k (ELam ps b) (GVClo env ps (compile_block k b))
| PE_pap k f m u args :
    peval env k (ECall f (S m) u args)
          (GVClo env (rnames (S m) 0)
                 [ret_stmt u (GCall (GVar f) (compile_list k args ++ map GVar (rnames (S m) 0)))])
| PE_arith k op a b ga gb gv :
    op <> OAnd -> op <> OOr -> peval env k a ga -> peval env (k + nv a) b gb ->
    arith gops op ga gb = Some gv -> peval env k (EBin op a b) gv
| PE_and_false k a b : peval env k a (GVBool false) -> peval env k (EBin OAnd a b) (GVBool false)
| PE_and_true k a b y :
    peval env k a (GVBool true) -> peval env (k + nv a) b (GVBool y) -> peval env k (EBin OAnd a b) (GVBool y)
| PE_or_true k a b : peval env k a (GVBool true) -> peval env k (EBin OOr a b) (GVBool true)
| PE_or_false k a b y :
    peval env k a (GVBool false) -> peval env (k + nv a) b (GVBool y) -> peval env k (EBin OOr a b) (GVBool y)
| PE_eq k neg a b ga gb r :
    peval env k a ga -> peval env (k + nv a) b gb -> gval_eq ga gb = Some r ->
    peval env k (EEq neg a b) (GVBool (if neg then negb r else r))
| PE_not k a b : peval env k a (GVBool b) -> peval env k (ENot a) (GVBool (negb b))
| PE_tuple k es gvs :
    pevals env k es gvs -> two_or_three (List.length es) ->
    peval env k (ETuple es) (GVStruct (tuple_struct (List.length gvs)) (combine tuple_fields gvs))
| PE_record k n decl fs es gvs gfs :
    pevals env k es gvs -> List.length fs = List.length es -> arrange decl (combine fs gvs) = Some gfs ->
    peval env k (ERecord n decl fs es) (GVStruct n gfs)
| PE_field k e f tn gfs gv :
    peval env k e (GVStruct tn gfs) -> lookup f gfs = Some gv -> peval env k (EField e f) gv
| PE_ctor0 k u c :
    ctor_ok u c false -> lookup (ctor_name u c) env = None ->
    peval env k (ECtor u c None) (GVStruct (case_struct u c) [])
| PE_ctor1 k u c a ga :
    ctor_ok u c true -> lookup (ctor_name u c) env = None -> peval env k a ga ->
    peval env k (ECtor u c (Some a)) (GVStruct (case_struct u c) [("Value"%string, ga)])
| PE_slice k es gvs : pevals env k es gvs -> peval env k (ESlice es) (GVSlice gvs)
with pevals (env:genv) : nat -> list expr -> list gval -> Prop :=
| PEs_nil k : pevals env k [] []
| PEs_cons k e es gv gvs :
    peval env k e gv -> pevals env (k + nv e) es gvs -> pevals env k (e :: es) (gv :: gvs).

Scheme peval_mind := Minimality for peval Sort Prop
  with pevals_mind := Minimality for pevals Sort Prop.
Combined Scheme peval_mutind from peval_mind, pevals_mind.

Inductive vrel : val -> gval -> Prop :=
| VR_int z : vrel (VInt z) (GVInt z)
| VR_str s : vrel (VStr s) (GVStr s)
| VR_bool b : vrel (VBool b) (GVBool b)
| VR_unit : vrel VUnit GVUnit
| VR_tuple vs gvs :
    Forall2 vrel vs gvs -> two_or_three (List.length vs) ->
    vrel (VTuple vs) (GVStruct (tuple_struct (List.length gvs)) (combine tuple_fields gvs))
| VR_rec name fs gfs :
    Forall2 (fun a b => fst a = fst b /\ vrel (snd a) (snd b)) fs gfs ->
    vrel (VRec name fs) (GVStruct name gfs)
| VR_union0 u c : vrel (VUnion u c None) (GVStruct (case_struct u c) [])
| VR_union1 u c v gv :
    vrel v gv -> vrel (VUnion u c (Some v)) (GVStruct (case_struct u c) [("Value"%string, gv)])
| VR_slice vs gvs : Forall2 vrel vs gvs -> vrel (VSlice vs) (GVSlice gvs)
| VR_clo senv genv ps b k :
    (forall x v, reserved x = false -> lookup x senv = Some v ->
       exists gv, lookup x genv = Some gv /\ vrel v gv) ->
    (forall x, reserved x = false -> lookup x senv = None -> lookup x genv = None) ->
    (forall x, ctor_like x = true -> lookup x genv = None) ->
    Forall (fun p => reserved p = false) ps -> wfb b ->
    vrel (VClo senv ps b) (GVClo genv ps (compile_block k b))
| VR_pap fv vs m u genv f args k :
    reserved f = false -> Forall wfe args -> Forall pure args ->
    (forall env', equiv genv env' ->
       (exists gf, glookup gfuncs f env' = Some gf /\ vrel fv gf) /\
       exists gvs, pevals env' k args gvs /\ Forall2 vrel vs gvs) ->
    vrel (VPap fv vs (S m) u)
         (GVClo genv (rnames (S m) 0)
                [ret_stmt u (GCall (GVar f) (compile_list k args ++ map GVar (rnames (S m) 0)))]).

(** environments: related values under the user's names; a name unbound in the source is unbound in the target
    (so that both sides fall through to the same top-level function, [lookup_var] / [glookup]); no local is named
    like a generated constructor (so that [New_U_C] resolves at package level).  [equiv] speaks of all
    non-temporaries, constructor names included, for the sake of the last clause. *)
Definition erel (senv:senv) (genv:genv) : Prop :=
  (forall x v, reserved x = false -> lookup x senv = Some v ->
     exists gv, lookup x genv = Some gv /\ vrel v gv) /\
  (forall x, reserved x = false -> lookup x senv = None -> lookup x genv = None) /\
  (forall x, ctor_like x = true -> lookup x genv = None).

End Rel.

(** what the simulation assumes of the package level of the target program: every source function is there, lowered
    at some value of the temporary counter; the constructor of a declared case is the generated function (with a
    payload) or variable (without) *)
Definition funs_lowered (d:dialect) (ctor_ok:string -> string -> bool -> Prop) (sfuns:fundefs) (gfuncs:gfundefs) : Prop :=
  forall f ps b, lookup f sfuns = Some (ps, b) ->
  exists k, lookup f gfuncs = Some (ps, compile_block d k b) /\
            Forall (fun x => reserved x = false) ps /\ wfb true ctor_ok b.
Definition ctor_func_body (u c:string) : list var * list gstmt :=
  (["v"%string], [GSReturn (GStructLit (case_struct u c) ["Value"%string] [("Value"%string, GVar "v"%string)])]).
Definition ctor1_lowered (ctor_ok:string -> string -> bool -> Prop) (gfuncs:gfundefs) : Prop :=
  forall u c, ctor_ok u c true -> lookup (ctor_name u c) gfuncs = Some (ctor_func_body u c).
Definition ctor0_lowered (ctor_ok:string -> string -> bool -> Prop) (gfuncs:gfundefs) (gvars:gvardefs) : Prop :=
  forall u c, ctor_ok u c false ->
  lookup (ctor_name u c) gfuncs = None /\
  lookup (ctor_name u c) gvars = Some (GStructLit (case_struct u c) [] []).
