(** C01 — facts about names, environments and the string helpers of Core/Common.v *)
From Coq Require Import List ZArith String Ascii Bool Lia DecimalString DecimalNat.
From FoVerif Require Import Core.Common.
Import ListNotations.
Open Scope list_scope.

Lemma nat_dec_inj i j : nat_dec i = nat_dec j -> i = j.
Proof.
  unfold nat_dec; intros H.
  assert (E : Some (Nat.to_uint i) = Some (Nat.to_uint j)).
  { rewrite <- !NilEmpty.usu. rewrite H. reflexivity. }
  inversion E as [E']. rewrite <- (Unsigned.of_to i), <- (Unsigned.of_to j), E'. reflexivity.
Qed.

Lemma rname_inj i j : rname i = rname j -> i = j.
Proof. unfold rname; cbn. intros H; inversion H. apply nat_dec_inj; assumption. Qed.

Lemma rname_tmp i : is_tmp (rname i) = true.
Proof. reflexivity. Qed.
Lemma vname_tmp i : is_tmp (vname i) = true.
Proof. reflexivity. Qed.
Lemma rname_not_ctor i : ctor_like (rname i) = false.
Proof. reflexivity. Qed.
Lemma vname_not_ctor i : ctor_like (vname i) = false.
Proof. reflexivity. Qed.
Lemma ctor_name_like u c : ctor_like (ctor_name u c) = true.
Proof. unfold ctor_like, ctor_name. cbn. destruct (case_struct u c); reflexivity. Qed.
Lemma ctor_name_not_tmp u c : is_tmp (ctor_name u c) = false.
Proof. unfold is_tmp, ctor_name. cbn. reflexivity. Qed.

Lemma ctor_like_not_tmp x : ctor_like x = true -> is_tmp x = false.
Proof.
  unfold ctor_like, is_tmp. destruct x as [|a x]; [reflexivity|].
  cbn [prefix]. destruct (ascii_dec "N" a) as [<-|N]; [intros _|discriminate].
  destruct (ascii_dec "_" "N") as [E|_]; [discriminate E|reflexivity].
Qed.

Lemma tmp_reserved x : is_tmp x = true -> reserved x = true.
Proof. unfold reserved; intros ->; reflexivity. Qed.

Lemma rnames_length k i : List.length (rnames k i) = k.
Proof. revert i; induction k; intros; cbn; auto. Qed.
Lemma rnames_In k : forall i x, In x (rnames k i) -> exists j, i <= j /\ x = rname j.
Proof.
  induction k as [|k IH]; intros i x H; cbn in H; [contradiction|].
  destruct H as [<-|H]; [exists i; auto | destruct (IH _ _ H) as (j & Hj & ->); exists j; split; [lia|reflexivity]].
Qed.
Lemma rnames_tmp k i x : In x (rnames k i) -> is_tmp x = true.
Proof. intros H; destruct (rnames_In _ _ _ H) as (j & _ & ->); reflexivity. Qed.

Lemma lookup_cons_eq {A} x (v:A) e : lookup x ((x, v) :: e) = Some v.
Proof. cbn; rewrite String.eqb_refl; reflexivity. Qed.
Lemma lookup_cons_neq {A} x y (v:A) e : x <> y -> lookup x ((y, v) :: e) = lookup x e.
Proof. intros N; cbn. destruct (String.eqb x y) eqn:E; [apply String.eqb_eq in E; contradiction|reflexivity]. Qed.

Lemma bind_lookup_notin {A} ps : forall (vs:list A) env env' x,
  bind ps vs env = Some env' -> ~ In x ps -> lookup x env' = lookup x env.
Proof.
  induction ps as [|p ps IH]; intros [|v vs] env env' x B N; cbn in B; try discriminate.
  - inversion B; reflexivity.
  - rewrite (IH _ _ _ _ B) by (intro; apply N; right; assumption).
    apply lookup_cons_neq. intros ->; apply N; left; reflexivity.
Qed.

Lemma bind_length {A} ps : forall (vs:list A) env,
  List.length ps = List.length vs -> exists env', bind ps vs env = Some env'.
Proof. induction ps as [|p ps IH]; intros [|v vs] env L; cbn in *; try discriminate; eauto. Qed.

Lemma bind_some_length {A} ps : forall (vs:list A) env env',
  bind ps vs env = Some env' -> List.length ps = List.length vs.
Proof.
  induction ps as [|p ps IH]; intros [|v vs] env env' B; cbn in *; try discriminate; auto.
  f_equal; eapply IH; eauto.
Qed.

Lemma Forall2_length' {A B} {R:A->B->Prop} {l1 l2} : Forall2 R l1 l2 -> List.length l1 = List.length l2.
Proof. induction 1; cbn; congruence. Qed.

Lemma append_inj_l a : forall b c, (a ++ b)%string = (a ++ c)%string -> b = c.
Proof. induction a as [|x a IH]; cbn; intros b c H; [exact H|]. inversion H; auto. Qed.

Lemma case_struct_eqb u c c' : String.eqb (case_struct u c) (case_struct u c') = String.eqb c c'.
Proof.
  unfold case_struct.
  destruct (String.eqb c c') eqn:E.
  - apply String.eqb_eq in E; subst. apply String.eqb_refl.
  - apply String.eqb_neq in E. apply String.eqb_neq. intros H; apply E.
    apply append_inj_l in H. apply append_inj_l in H. exact H.
Qed.

Lemma append_assoc (a b c:string) : ((a ++ b) ++ c)%string = (a ++ (b ++ c))%string.
Proof. induction a; cbn; congruence. Qed.

Lemma match_percent {A} (a b:A) c :
  match c with "%"%char => a | _ => b end = if Ascii.eqb c "%" then a else b.
Proof.
  (* "%" is 00100101, low bit first: one wrong bit decides *)
  destruct c as [b0 b1 b2 b3 b4 b5 b6 b7].
  destruct b0; [|reflexivity]. destruct b1; [reflexivity|]. destruct b2; [|reflexivity].
  destruct b3; [reflexivity|]. destruct b4; [reflexivity|]. destruct b5; [|reflexivity].
  destruct b6; [reflexivity|]. destruct b7; reflexivity.
Qed.

Lemma format_s_char c r args :
  Ascii.eqb c "%" = false -> format_s (String c r) args = option_map (String c) (format_s r args).
Proof. intros E. cbn [format_s]. rewrite match_percent, E. reflexivity. Qed.

Lemma format_s_escape s : forall rest args,
  format_s (escape_percent s ++ rest)%string args = option_map (String.append s) (format_s rest args).
Proof.
  induction s as [|c s IH]; intros rest args; cbn [escape_percent String.append].
  - destruct (format_s rest args); reflexivity.
  - destruct (Ascii.eqb c "%") eqn:E.
    + apply Ascii.eqb_eq in E; subst c. cbn. rewrite IH. destruct (format_s rest args); reflexivity.
    + cbn [String.append]. rewrite (format_s_char _ _ _ E), IH. destruct (format_s rest args); reflexivity.
Qed.
