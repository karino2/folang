(** C02 — proofs about Core/Infer.v: constraint generation is sound and complete for the
    declarative typing judgement; with Core/UnifyProofs.v this gives soundness and principality of
    [infer_fun], canonical numbering, annotation erasure, independence of instances. *)
From Coq Require Import Arith Lia Bool List.
From FoVerif Require Import Core.Unify Core.UnifyProofs Core.Infer.
Import ListNotations.

Section ExpInd.
Variable P : exp -> Prop.
Hypothesis Hvar : forall x, P (XVar x).
Hypothesis Hlit : forall l, P (XLit l).
Hypothesis Hprim : forall p args, Forall P args -> P (XPrim p args).
Hypothesis Hcallp : forall f args, Forall P args -> P (XCallP f args).
Hypothesis Hlet : forall x a b, P a -> P b -> P (XLet x a b).
Hypothesis Hlettup : forall xs a b, P a -> P b -> P (XLetTup xs a b).
Hypothesis Hlam : forall xs b, P b -> P (XLam xs b).

Fixpoint exp_ind2 (e:exp) : P e :=
  let go := fix go (l:list exp) : Forall P l :=
              match l with [] => Forall_nil P | a::r => Forall_cons a (exp_ind2 a) (go r) end in
  match e with
  | XVar x => Hvar x
  | XLit l => Hlit l
  | XPrim p args => Hprim p args (go args)
  | XCallP f args => Hcallp f args (go args)
  | XLet x a b => Hlet x a b (exp_ind2 a) (exp_ind2 b)
  | XLetTup xs a b => Hlettup xs a b (exp_ind2 a) (exp_ind2 b)
  | XLam xs b => Hlam xs b (exp_ind2 b)
  end.
End ExpInd.

Fixpoint below (n:nat) (t:ty) : Prop :=
  match t with TVar x => x < n | TAtom _ => True | TNode l r => below n l /\ below n r end.

Definition agree (n:nat) (th th':nat->ty) : Prop := forall v, v < n -> th' v = th v.
Definition env_below (n:nat) (G:env) : Prop := forall x t, In (x,t) G -> below n t.
Definition eqs_below (n:nat) (es:list eqn) : Prop := forall s t, In (s,t) es -> below n s /\ below n t.

Lemma below_mono n m t : below n t -> n <= m -> below m t.
Proof. induction t; cbn; intros; try lia; intuition. Qed.
Lemma Forall_below_mono n m ts : Forall (below n) ts -> n <= m -> Forall (below m) ts.
Proof. intros F L. eapply Forall_impl; [|exact F]. intros; eapply below_mono; eauto. Qed.
Lemma agree_app n th th' t : agree n th th' -> below n t -> app th' t = app th t.
Proof. intros A; induction t; cbn; intros B; auto. destruct B; f_equal; auto. Qed.
Lemma agree_map n th th' ts : agree n th th' -> Forall (below n) ts -> map (app th') ts = map (app th) ts.
Proof. intros A F. induction F; cbn; f_equal; auto. eapply agree_app; eauto. Qed.
Lemma agree_menv n th th' G : agree n th th' -> env_below n G -> menv th' G = menv th G.
Proof. intros A; induction G as [|(x,t) G IH]; cbn; intros B; auto. f_equal.
  - f_equal. eapply agree_app; eauto. apply (B x t); left; reflexivity.
  - apply IH. intros y u I; apply (B y u); right; exact I. Qed.
Lemma agree_unifies n th th' es : agree n th th' -> eqs_below n es -> unifies th es -> unifies th' es.
Proof. intros A B U s t I. destruct (B _ _ I). rewrite !(agree_app n th th') by assumption. apply U; exact I. Qed.
Lemma agree_trans n m a b c : agree n a b -> agree m b c -> n <= m -> agree n a c.
Proof. intros A B L v Hv. rewrite B, A by lia. reflexivity. Qed.
Lemma agree_mono n m a b : agree m a b -> n <= m -> agree n a b.
Proof. intros A L v Hv; apply A; lia. Qed.
Lemma agree_refl n a : agree n a a.
Proof. intros v _; reflexivity. Qed.

Lemma eqs_below_mono n m es : eqs_below n es -> n <= m -> eqs_below m es.
Proof. intros A L s t I; destruct (A _ _ I); split; eapply below_mono; eauto. Qed.
Lemma eqs_below_combine n l1 l2 : Forall (below n) l1 -> Forall (below n) l2 -> eqs_below n (combine l1 l2).
Proof. intros F1; revert l2; induction F1; intros l2 F2; cbn; [apply allp_nil|].
  destruct F2; [apply allp_nil|]. apply allp_cons. split; [split; assumption|apply IHF1, F2]. Qed.

Lemma unifies_combine th l1 l2 : length l1 = length l2 ->
  (unifies th (combine l1 l2) <-> map (app th) l1 = map (app th) l2).
Proof. revert l2; induction l1 as [|a l1 IH]; intros [|b l2] L; cbn in *; try discriminate.
  - split; intros; [reflexivity|apply allp_nil].
  - injection L as L. split.
    + intros U. apply allp_cons in U. destruct U as (E & U). apply (IH l2 L) in U. congruence.
    + intros M; injection M as E M. apply allp_cons. split; [exact E|apply (IH l2 L), M]. Qed.

Lemma lookup_menv th x G : lookup x (menv th G) = option_map (app th) (lookup x G).
Proof. induction G as [|(y,t) G IH]; cbn; auto. destruct (Nat.eqb x y); auto. Qed.
Lemma lookup_below n G x t : env_below n G -> lookup x G = Some t -> below n t.
Proof. induction G as [|(y,u) G IH]; cbn; intros B L; [discriminate|].
  destruct (Nat.eqb x y); [inversion L; subst; apply (B y t); left; reflexivity|].
  apply IH; auto. intros z w I; apply (B z w); right; exact I. Qed.
Lemma env_below_mono n m G : env_below n G -> n <= m -> env_below m G.
Proof. intros B L x t I. eapply below_mono; eauto. Qed.

Lemma menv_bind th xs : forall ts G, menv th (bind xs ts G) = bind xs (map (app th) ts) (menv th G).
Proof. induction xs as [|[x|] xs IH]; intros [|t ts] G; cbn [bind map]; auto; rewrite IH; reflexivity. Qed.
Lemma env_below_bind n xs : forall ts G, Forall (below n) ts -> env_below n G -> env_below n (bind xs ts G).
Proof. induction xs as [|[x|] xs IH]; intros [|t ts] G F B; cbn; auto; inversion F; subst; apply IH; auto.
  apply allp_cons; auto. Qed.

Lemma app_tlist th ts : app th (tlist ts) = tlist (map (app th) ts).
Proof. induction ts; cbn; congruence. Qed.
Lemma app_tfun th ts r : app th (tfun ts r) = tfun (map (app th) ts) (app th r).
Proof. unfold tfun. cbn. rewrite app_tlist. reflexivity. Qed.
Lemma app_ttuple th ts : app th (ttuple ts) = ttuple (map (app th) ts).
Proof. unfold ttuple. cbn. rewrite app_tlist. reflexivity. Qed.
Lemma below_tlist n ts : below n (tlist ts) <-> Forall (below n) ts.
Proof. induction ts; cbn; split; auto.
  - intros (A & B); constructor; tauto.
  - intros F; inversion F; subst; tauto. Qed.
Lemma below_tfun n ts r : below n (tfun ts r) <-> Forall (below n) ts /\ below n r.
Proof. unfold tfun; cbn. rewrite below_tlist. tauto. Qed.
Lemma below_ttuple n ts : below n (ttuple ts) <-> Forall (below n) ts.
Proof. unfold ttuple; cbn. rewrite below_tlist. tauto. Qed.
Lemma tlist_inj ts ts' : tlist ts = tlist ts' -> ts = ts'.
Proof. revert ts'; induction ts; intros [|b ts']; cbn; intros E; try discriminate; auto.
  injection E as -> E. f_equal; auto. Qed.
Lemma ttuple_inj ts ts' : ttuple ts = ttuple ts' -> ts = ts'.
Proof. unfold ttuple; intros E; injection E as E; apply tlist_inj; exact E. Qed.
Lemma tfun_inj ts r ts' r' : tfun ts r = tfun ts' r' -> ts = ts' /\ r = r'.
Proof. unfold tfun; intros E; injection E as E1 E2; split; auto; apply tlist_inj; exact E1. Qed.

Lemma app_shift th n t : app th (shift n t) = app (fun x => th (n + x)) t.
Proof. induction t; cbn; congruence. Qed.
Lemma below_shift n k t : below k t -> below (n + k) (shift n t).
Proof. induction t; cbn; intros; try lia; intuition. Qed.
Lemma Forall_below_shift n k ts : Forall (below k) ts -> Forall (below (n + k)) (map (shift n) ts).
Proof. intros F; induction F; cbn; constructor; auto using below_shift. Qed.

Lemma below_seqvars n k : Forall (below (n + k)) (map TVar (seq n k)).
Proof. revert n; induction k; intros n; cbn; constructor; [cbn; lia|rewrite <- Nat.add_succ_comm; apply IHk]. Qed.

Definition ext (n:nat) (ts:list ty) (th:nat->ty) : nat -> ty :=
  fun v => if v <? n then th v else match nth_error ts (v - n) with Some t => t | None => th v end.

Lemma agree_ext n ts th : agree n th (ext n ts th).
Proof. intros v Hv. unfold ext. apply Nat.ltb_lt in Hv. rewrite Hv. reflexivity. Qed.
Lemma ext_at n ts th i t : nth_error ts i = Some t -> ext n ts th (n + i) = t.
Proof. intros E. unfold ext. destruct (n + i <? n) eqn:C; [apply Nat.ltb_lt in C; lia|].
  replace (n + i - n) with i by lia. rewrite E. reflexivity. Qed.
Lemma map_ext_seqvars n ts th : map (app (ext n ts th)) (map TVar (seq n (length ts))) = ts.
Proof.
  rewrite map_map. cbn [app].
  assert (K : forall l m, (forall i t, nth_error l i = Some t -> ext n ts th (m + i) = t) ->
                          map (fun x => ext n ts th x) (seq m (length l)) = l).
  { induction l as [|a l IH]; intros m H; cbn; auto. f_equal.
    - rewrite <- (Nat.add_0_r m). apply H. reflexivity.
    - apply IH. intros i t E. replace (S m + i) with (m + S i) by lia. apply H. exact E. }
  apply K. intros i t E. apply ext_at. exact E.
Qed.

Definition scheme_ok (s:scheme) : Prop := Forall (below (sk s)) (sargs s) /\ below (sk s) (sres s).
Definition tdecl_ok (d:tdecl) : Prop :=
  match d with
  | DRecord k fields => Forall (below k) fields
  | DUnion k cases => Forall (fun c => match c with Some t => below k t | None => True end) cases
  end.
Definition decls_ok (D:decls) : Prop := Forall tdecl_ok (d_types D) /\ Forall scheme_ok (d_globals D).

Lemma below_tvars_upto k : Forall (below k) (tvars_upto k).
Proof. apply (below_seqvars 0). Qed.

Lemma Forall_nth_error {A} (P:A->Prop) l i x : Forall P l -> nth_error l i = Some x -> P x.
Proof. intros F E. apply nth_error_In in E. rewrite Forall_forall in F. auto. Qed.

Lemma below_tnamed k r : below k (tnamed r (tvars_upto k)).
Proof. split; [exact I|apply below_tlist, below_tvars_upto]. Qed.

Lemma prim_scheme_ok D p s : decls_ok D -> prim_scheme D p = Some s -> scheme_ok s.
Proof.
  intros (OT & OG) E. unfold scheme_ok.
  destruct p; cbn in E; try (injection E as <-; cbn; repeat constructor; cbn; lia).
  - injection E as <-; cbn [sk sargs sres]. split; [apply below_tvars_upto|apply below_ttuple, below_tvars_upto].
  - injection E as <-; cbn [sk sargs sres]. split; [|cbn; lia]. apply Forall_forall. intros x I.
    apply repeat_spec in I; subst; cbn; lia.
  - destruct (nth_error (d_types D) r) as [[k fs|k cs]|] eqn:N; try discriminate. injection E as <-.
    split; [exact (Forall_nth_error _ _ _ _ OT N)|apply below_tnamed].
  - destruct (nth_error (d_types D) u) as [[k fs|k cs]|] eqn:N; try discriminate.
    pose proof (Forall_nth_error _ _ _ _ OT N) as O; cbn in O.
    destruct (nth_error cs c) as [[t|]|] eqn:C; try discriminate; injection E as <-;
      (split; [|apply below_tnamed]); repeat constructor. exact (Forall_nth_error _ _ _ _ O C).
  - destruct (nth_error (d_types D) r) as [[k fs|k cs]|] eqn:N; try discriminate.
    pose proof (Forall_nth_error _ _ _ _ OT N) as O; cbn in O.
    destruct (nth_error fs f) as [t|] eqn:C; try discriminate. injection E as <-.
    split; [constructor; [apply below_tnamed|constructor]|exact (Forall_nth_error _ _ _ _ O C)].
  - exact (Forall_nth_error _ _ _ _ OG E).
Qed.

Lemma Forall_firstn_skipn {A} (P:A->Prop) m l : Forall P l -> Forall P (firstn m l) /\ Forall P (skipn m l).
Proof. rewrite <- (firstn_skipn m l) at 1. apply Forall_app. Qed.

Lemma below_res_after s m : scheme_ok s -> below (sk s) (res_after s m).
Proof. intros (A & B). unfold res_after. pose proof (proj2 (Forall_firstn_skipn _ m _ A)) as F.
  destruct (skipn m (sargs s)) as [|a r]; [exact B|]. apply below_tfun. auto. Qed.

Lemma arity_ok_le p m n : arity_ok p m n = true -> m <= n.
Proof. destruct p; cbn; intros E; try (apply Nat.eqb_eq in E; lia). apply Nat.leb_le in E; exact E. Qed.

Section Gen.
Variable D : decls.

Lemma gen_args_length ge args : forall n ts es n', gen_args ge args n = Some (ts, es, n') -> length ts = length args.
Proof. induction args as [|a r IH]; intros n ts es n' H; cbn in H.
  - injection H as <- _ _; reflexivity.
  - destruct (ge a n) as [[[ta ea] n1]|]; try discriminate.
    destruct (gen_args ge r n1) as [[[ts0 er] n2]|] eqn:R; try discriminate.
    injection H as <- _ _. cbn. f_equal. eauto. Qed.

Lemma gen_args_counter ge args : (Forall (fun a => forall n t es n', ge a n = Some (t, es, n') -> n <= n') args) ->
  forall n ts es n', gen_args ge args n = Some (ts, es, n') -> n <= n'.
Proof. intros F; induction F as [|a r Ha _ IH]; intros n ts es n' H; cbn in H.
  - injection H as _ _ <-; lia.
  - destruct (ge a n) as [[[ta ea] n1]|] eqn:Ga; try discriminate.
    destruct (gen_args ge r n1) as [[[ts0 er] n2]|] eqn:R; try discriminate.
    injection H as _ _ <-. specialize (Ha _ _ _ _ Ga). specialize (IH _ _ _ _ R). lia. Qed.

(* the counter part stands outside the hypotheses: [gen_counter] has none *)
Definition fresh_at (a:exp) : Prop :=
  forall G n t es n', gen D G a n = Some (t, es, n') ->
  n <= n' /\ (decls_ok D -> env_below n G -> below n' t /\ eqs_below n' es).

Lemma gen_args_fresh G args : Forall fresh_at args ->
  forall n ts es n', gen_args (gen D G) args n = Some (ts, es, n') ->
  n <= n' /\ (decls_ok D -> env_below n G -> Forall (below n') ts /\ eqs_below n' es).
Proof.
  intros F; induction F as [|a r Ha _ IH]; intros n ts es n' H; cbn in H.
  - injection H as <- <- <-. split; [lia|]. intros _ _. split; [constructor|apply allp_nil].
  - destruct (gen D G a n) as [[[ta ea] n1]|] eqn:Ga; try discriminate.
    destruct (gen_args (gen D G) r n1) as [[[ts0 er] n2]|] eqn:R; try discriminate. injection H as <- <- <-.
    destruct (Ha _ _ _ _ _ Ga) as (L1 & F1), (IH _ _ _ _ R) as (L2 & F2). split; [lia|]. intros OK B.
    destruct (F1 OK B) as (B1 & Q1), (F2 OK (env_below_mono _ _ _ B L1)) as (B2 & Q2).
    split; [constructor; [eapply below_mono; eauto|exact B2]|].
    apply allp_app; split; [eapply eqs_below_mono; eauto|exact Q2].
Qed.

Lemma gen_fresh : forall e, fresh_at e.
Proof.
  induction e as [x|l|p args IH|f args IH|x a b IHa IHb|xs a b IHa IHb|xs b IHb] using exp_ind2;
    intros G n t es n' H; cbn [gen] in H.
  - destruct (lookup x G) as [t0|] eqn:L; [|discriminate]. injection H as <- <- <-. split; [lia|].
    intros _ B. split; [eapply lookup_below; eauto|apply allp_nil].
  - injection H as <- <- <-. split; [lia|]. intros _ _. split; [destruct l; exact I|apply allp_nil].
  - destruct (prim_scheme D p) as [s|] eqn:PS; try discriminate.
    destruct (arity_ok _ _ _); try discriminate.
    destruct (gen_args (gen D G) args (n + sk s)) as [[[tas eas] n1]|] eqn:GA; try discriminate.
    injection H as <- <- <-. destruct (gen_args_fresh G args IH _ _ _ _ GA) as (L1 & F1). split; [lia|].
    intros OK B. destruct (prim_scheme_ok _ _ _ OK PS) as (SA & SR).
    destruct (F1 OK) as (B1 & Q1); [eapply env_below_mono; eauto; lia|]. split.
    + eapply below_mono; [apply below_shift, below_res_after; split; assumption|exact L1].
    + apply allp_app; split; [|exact Q1]. apply eqs_below_combine; [|exact B1].
      eapply Forall_below_mono; [apply Forall_below_shift, (Forall_firstn_skipn _ _ _ SA)|exact L1].
  - destruct (lookup f G) as [tf|] eqn:L; try discriminate.
    destruct (gen_args (gen D G) args n) as [[[tas eas] n1]|] eqn:GA; try discriminate.
    injection H as <- <- <-. destruct (gen_args_fresh G args IH _ _ _ _ GA) as (L1 & F1). split; [lia|].
    intros OK B. destruct (F1 OK B) as (B1 & Q1). split; [cbn; lia|]. apply allp_cons; split; [split|].
    + eapply below_mono; [eapply lookup_below; eauto|lia].
    + apply below_tfun; split; [eapply Forall_below_mono; eauto|cbn; lia].
    + eapply eqs_below_mono; eauto.
  - destruct (gen D G a n) as [[[ta ea] n1]|] eqn:Ga; try discriminate.
    destruct (gen D ((x,ta)::G) b n1) as [[[tb eb] n2]|] eqn:Gb; try discriminate. injection H as <- <- <-.
    destruct (IHa _ _ _ _ _ Ga) as (L1 & F1), (IHb _ _ _ _ _ Gb) as (L2 & F2). split; [lia|]. intros OK B.
    destruct (F1 OK B) as (B1 & Q1).
    destruct (F2 OK) as (B2 & Q2); [apply allp_cons; split; [exact B1|eapply env_below_mono; eauto]|].
    split; [exact B2|]. apply allp_app; split; [eapply eqs_below_mono; eauto|exact Q2].
  - destruct (gen D G a n) as [[[ta ea] n1]|] eqn:Ga; try discriminate.
    destruct (gen D _ b (n1 + length xs)) as [[[tb eb] n2]|] eqn:Gb; try discriminate. injection H as <- <- <-.
    destruct (IHa _ _ _ _ _ Ga) as (L1 & F1), (IHb _ _ _ _ _ Gb) as (L2 & F2). split; [lia|]. intros OK B.
    destruct (F1 OK B) as (B1 & Q1).
    assert (Bvs : Forall (below (n1 + length xs)) (map TVar (seq n1 (length xs)))) by apply below_seqvars.
    destruct (F2 OK) as (B2 & Q2); [apply env_below_bind; [exact Bvs|eapply env_below_mono; eauto; lia]|].
    split; [exact B2|]. apply allp_cons; split; [split|].
    + eapply below_mono; eauto; lia.
    + apply below_ttuple. eapply Forall_below_mono; eauto.
    + apply allp_app; split; [eapply eqs_below_mono; eauto; lia|exact Q2].
  - destruct (gen D _ b (n + length xs)) as [[[tb eb] n1]|] eqn:Gb; try discriminate. injection H as <- <- <-.
    destruct (IHb _ _ _ _ _ Gb) as (L2 & F2). split; [lia|]. intros OK B.
    assert (Bvs : Forall (below (n + length xs)) (map TVar (seq n (length xs)))) by apply below_seqvars.
    destruct (F2 OK) as (B2 & Q2); [apply env_below_bind; [exact Bvs|eapply env_below_mono; eauto; lia]|].
    split; [apply below_tfun; split; [eapply Forall_below_mono; eauto|exact B2]|exact Q2].
Qed.

Lemma gen_counter : forall e G n t es n', gen D G e n = Some (t, es, n') -> n <= n'.
Proof. intros e G n t es n' H. exact (proj1 (gen_fresh e G n t es n' H)). Qed.

Definition sound_at (a:exp) : Prop :=
  forall G n t es n', gen D G a n = Some (t, es, n') ->
  forall th, unifies th es -> has D (menv th G) a (app th t).

Lemma gen_args_sound G args : Forall sound_at args ->
  forall n ts es n', gen_args (gen D G) args n = Some (ts, es, n') ->
  forall th, unifies th es -> has_list D (menv th G) args (map (app th) ts).
Proof.
  intros F; induction F as [|a r Ha _ IH]; intros n ts es n' H th U; cbn in H.
  - injection H as <- _ _. constructor.
  - destruct (gen D G a n) as [[[ta ea] n1]|] eqn:Ga; try discriminate.
    destruct (gen_args (gen D G) r n1) as [[[ts0 er] n2]|] eqn:R; try discriminate.
    injection H as <- <- _. apply allp_app in U. destruct U as (Ua & Ur).
    cbn. constructor; [eapply Ha; eauto|eapply IH; eauto].
Qed.

Theorem gen_sound : forall e G n t es n', gen D G e n = Some (t, es, n') ->
  forall th, unifies th es -> has D (menv th G) e (app th t).
Proof.
  induction e as [x|l|p args IH|f args IH|x a b IHa IHb|xs a b IHa IHb|xs b IHb] using exp_ind2;
    intros G n t es n' H th U; cbn [gen] in H.
  - destruct (lookup x G) as [t0|] eqn:L; inversion H; subst. constructor. rewrite lookup_menv, L; reflexivity.
  - inversion H; subst. destruct l; constructor.
  - (* primitive / global application *)
    destruct (prim_scheme D p) as [s|] eqn:PS; try discriminate.
    destruct (arity_ok p (length args) (length (sargs s))) eqn:AR; try discriminate.
    destruct (gen_args (gen D G) args (n + sk s)) as [[[tas eas] n1]|] eqn:GA; try discriminate.
    injection H as <- <- _. apply allp_app in U. destruct U as (Uc & Ua).
    pose proof (gen_args_length _ _ _ _ _ _ GA) as LT.
    pose proof (arity_ok_le _ _ _ AR) as LE.
    apply unifies_combine in Uc; [|rewrite map_length, firstn_length; lia].
    rewrite app_shift. apply H_prim; auto.
    rewrite <- (map_ext_in _ _ _ (fun t _ => app_shift th n t)), <- map_map, Uc.
    eapply gen_args_sound; eauto.
  - (* application of a function-typed local *)
    destruct (lookup f G) as [tf|] eqn:L; try discriminate.
    destruct (gen_args (gen D G) args n) as [[[tas eas] n1]|] eqn:GA; try discriminate.
    injection H as <- <- _. apply allp_cons in U. destruct U as (E & Ua).
    rewrite app_tfun in E. cbn [app] in *.
    eapply H_callp; [rewrite lookup_menv, L; cbn; rewrite E; reflexivity|].
    eapply gen_args_sound; eauto.
  - destruct (gen D G a n) as [[[ta ea] n1]|] eqn:Ga; try discriminate.
    destruct (gen D ((x,ta)::G) b n1) as [[[tb eb] n2]|] eqn:Gb; try discriminate. injection H as <- <- _.
    apply allp_app in U. destruct U as (Ua & Ub). econstructor; [eapply IHa; eauto|].
    apply (IHb _ _ _ _ _ Gb th Ub).
  - (* destructuring let *)
    destruct (gen D G a n) as [[[ta ea] n1]|] eqn:Ga; try discriminate.
    destruct (gen D (bind xs (map TVar (seq n1 (length xs))) G) b (n1 + length xs)) as [[[tb eb] n2]|] eqn:Gb; try discriminate.
    injection H as <- <- _. apply allp_cons in U. destruct U as (E & U).
    apply allp_app in U. destruct U as (Ua & Ub). rewrite app_ttuple in E.
    eapply H_lettup with (ts := map (app th) (map TVar (seq n1 (length xs)))).
    + rewrite !map_length, seq_length; reflexivity.
    + rewrite <- E. eapply IHa; eauto.
    + rewrite <- menv_bind. eapply IHb; eauto.
  - (* lambda *)
    destruct (gen D (bind (map Some xs) (map TVar (seq n (length xs))) G) b (n + length xs)) as [[[tb eb] n1]|] eqn:Gb; try discriminate.
    injection H as <- <- _. rewrite app_tfun. apply H_lam.
    + rewrite !map_length, seq_length; reflexivity.
    + rewrite <- menv_bind. eapply IHb; eauto.
Qed.

End Gen.

Lemma nth_error_seq n k i : i < k -> nth_error (seq n k) i = Some (n + i).
Proof. intros L. rewrite (nth_error_nth' _ 0), seq_nth by (rewrite ?seq_length; exact L). reflexivity. Qed.

Section GenComplete.
Variable D : decls.
Hypothesis DOK : decls_ok D.

Definition complete_at (a:exp) : Prop :=
  forall G n th t', has D (menv th G) a t' -> env_below n G ->
  exists t es n' th', gen D G a n = Some (t, es, n') /\ n <= n' /\ agree n th th' /\
     unifies th' es /\ app th' t = t' /\ below n' t /\ eqs_below n' es.

Lemma complete_intro a :
  (forall G n th t', has D (menv th G) a t' -> env_below n G ->
   exists t es n' th', gen D G a n = Some (t, es, n') /\ agree n th th' /\ unifies th' es /\ app th' t = t') ->
  complete_at a.
Proof. intros K G n th t' H B. destruct (K G n th t' H B) as (t & es & n' & th' & GE & A & U & E).
  destruct (gen_fresh D a G n t es n' GE) as (L & F). destruct (F DOK B). exists t, es, n', th'. auto 8. Qed.

Lemma gen_args_complete G args : Forall complete_at args ->
  forall n th ts', has_list D (menv th G) args ts' -> env_below n G ->
  exists ts es n' th', gen_args (gen D G) args n = Some (ts, es, n') /\ n <= n' /\ agree n th th' /\
     unifies th' es /\ map (app th') ts = ts' /\ Forall (below n') ts /\ eqs_below n' es.
Proof.
  (* not through [gen_fresh]: that would bring [decls_ok D] into the statement *)
  intros F; induction F as [|a r Ha _ IH]; intros n th ts' H B; inversion H as [|? ? ? ta' tr' Hha Hhr]; subst; cbn.
  - exists [], [], n, th. split; [reflexivity|]. split; [lia|]. split; [apply agree_refl|]. split; [apply allp_nil|].
    split; [reflexivity|]. split; [constructor|apply allp_nil].
  - destruct (Ha G n th ta' Hha B) as (t1 & e1 & n1 & th1 & G1 & L1 & A1 & U1 & E1 & B1 & Q1).
    assert (Hr : has_list D (menv th1 G) r tr') by (rewrite (agree_menv n th th1 G A1 B); exact Hhr).
    destruct (IH n1 th1 tr' Hr (env_below_mono _ _ _ B L1)) as (ts2 & e2 & n2 & th2 & G2 & L2 & A2 & U2 & E2 & B2 & Q2).
    rewrite G1, G2. exists (t1 :: ts2), (e1 ++ e2), n2, th2.
    split; [reflexivity|]. split; [lia|]. split; [eapply agree_trans; eauto|].
    split; [apply allp_app; split; [eapply agree_unifies; eauto|exact U2]|].
    split; [cbn; rewrite (agree_app n1 th1 th2 t1 A2 B1), E1, E2; reflexivity|].
    split; [constructor; [eapply below_mono; eauto|exact B2]|].
    apply allp_app; split; [eapply eqs_below_mono; eauto|exact Q2].
Qed.

Theorem gen_complete : forall e G n th t',
  has D (menv th G) e t' -> env_below n G ->
  exists t es n' th', gen D G e n = Some (t, es, n') /\ n <= n' /\ agree n th th' /\
                      unifies th' es /\ app th' t = t' /\ below n' t /\ eqs_below n' es.
Proof.
  intros e. change (complete_at e).
  induction e as [x|l|p args IH|f args IH|x a b IHa IHb|xs a b IHa IHb|xs b IHb] using exp_ind2;
    apply complete_intro; intros G n th t' H B.
  - (* var *)
    inversion H as [? ? ? HL| | | | | | ]; subst.
    rewrite lookup_menv in HL. destruct (lookup x G) as [t0|] eqn:L; cbn in HL; inversion HL; subst.
    exists t0, [], n, th. split; [cbn; rewrite L; reflexivity|]. split; [apply agree_refl|]. split; [apply allp_nil|reflexivity].
  - inversion H; subst.
    exists (lit_ty l), [], n, th. split; [reflexivity|]. split; [apply agree_refl|]. split; [apply allp_nil|destruct l; reflexivity].
  - (* primitive / global application *)
    inversion H as [ | |? ? ? s rho PS AR HL| | | | ]; subst.
    destruct (prim_scheme_ok _ _ _ DOK PS) as (SA & SR).
    pose proof (arity_ok_le _ _ _ AR) as LE.
    set (m := length args) in *.
    set (th0 := ext n (map rho (seq 0 (sk s))) th).
    assert (A0 : agree n th th0) by apply agree_ext.
    assert (HL0 : has_list D (menv th0 G) args (map (app rho) (firstn m (sargs s))))
      by (rewrite (agree_menv n th th0 G A0 B); exact HL).
    destruct (gen_args_complete G args IH (n + sk s) th0 _ HL0) as (tas & eas & n1 & th1 & G1 & L1 & A1 & U1 & E1 & _).
    { eapply env_below_mono; eauto; lia. }
    assert (INST : forall t, below (sk s) t -> app th1 (shift n t) = app rho t).
    { intros t Bt. rewrite app_shift. induction t as [v|c|l IHl r IHr]; cbn [app below] in *; auto.
      - rewrite A1 by lia. unfold th0. apply ext_at.
        erewrite map_nth_error; [reflexivity|]. rewrite nth_error_seq by exact Bt. reflexivity.
      - destruct Bt; f_equal; auto. }
    pose proof (gen_args_length _ _ _ _ _ _ G1) as LT.
    do 3 eexists. exists th1. split; [cbn [gen]; fold m; rewrite PS, AR, G1; reflexivity|]. split; [|split].
    + apply (agree_trans n (n + sk s) _ _ _ A0 A1); lia.
    + apply allp_app; split; [|exact U1]. apply unifies_combine.
      * rewrite map_length, firstn_length. fold m in LT. lia.
      * rewrite E1, map_map. apply map_ext_in. intros t It. apply INST.
        pose proof (proj1 (Forall_firstn_skipn _ m _ SA)) as Ff. rewrite Forall_forall in Ff. auto.
    + apply INST, below_res_after; split; assumption.
  - (* application of a function-typed local *)
    inversion H as [ | | |? ? ? tas ? HLk HL| | | ]; subst.
    rewrite lookup_menv in HLk. destruct (lookup f G) as [tf|] eqn:L; cbn in HLk; inversion HLk as [Etf]; subst.
    destruct (gen_args_complete G args IH n th tas HL B) as (ts1 & e1 & n1 & th1 & G1 & L1 & A1 & U1 & E1 & B1 & Q1).
    set (th2 := ext n1 [t'] th1).
    assert (A2 : agree n1 th1 th2) by apply agree_ext.
    assert (V2 : th2 n1 = t').
    { pose proof (ext_at n1 [t'] th1 0 t' eq_refl) as V. rewrite Nat.add_0_r in V. exact V. }
    assert (Btf : below n tf) by (eapply lookup_below; eauto).
    do 3 eexists. exists th2. split; [cbn [gen]; rewrite L, G1; reflexivity|]. split; [|split; [|exact V2]].
    + eapply agree_trans; eauto.
    + apply allp_cons; split; [|eapply agree_unifies; eauto].
      rewrite app_tfun. cbn [app]. rewrite V2, (agree_map n1 th1 th2 ts1 A2 B1), E1.
      rewrite (agree_app n1 th1 th2 tf A2) by (eapply below_mono; eauto).
      rewrite (agree_app n th th1 tf A1 Btf). exact Etf.
  - (* let *)
    inversion H as [ | | | |? ? ? ? ta ? Hha Hhb| | ]; subst.
    destruct (IHa G n th ta Hha B) as (t1 & e1 & n1 & th1 & G1 & L1 & A1 & U1 & E1 & B1 & Q1).
    assert (Hb : has D (menv th1 ((x,t1)::G)) b t').
    { change (menv th1 ((x,t1)::G)) with ((x, app th1 t1) :: menv th1 G).
      rewrite E1, (agree_menv n th th1 G A1 B). exact Hhb. }
    destruct (IHb ((x,t1)::G) n1 th1 t' Hb) as (t2 & e2 & n2 & th2 & G2 & L2 & A2 & U2 & E2 & _).
    { apply allp_cons; split; [exact B1|eapply env_below_mono; eauto]. }
    do 3 eexists. exists th2. split; [cbn [gen]; rewrite G1, G2; reflexivity|]. split; [|split; [|exact E2]].
    + eapply agree_trans; eauto.
    + apply allp_app; split; [eapply agree_unifies; eauto|exact U2].
  - (* destructuring let *)
    inversion H as [ | | | | |? ? ? ? ts ? LEN Hha Hhb| ]; subst.
    destruct (IHa G n th (ttuple ts) Hha B) as (t1 & e1 & n1 & th1 & G1 & L1 & A1 & U1 & E1 & B1 & Q1).
    set (vs := map TVar (seq n1 (length xs))).
    set (th2 := ext n1 ts th1).
    assert (A2 : agree n1 th1 th2) by apply agree_ext.
    assert (V2 : map (app th2) vs = ts) by (unfold vs, th2; rewrite <- LEN; apply map_ext_seqvars).
    assert (Bvs : Forall (below (n1 + length xs)) vs) by apply below_seqvars.
    assert (Hb : has D (menv th2 (bind xs vs G)) b t').
    { rewrite menv_bind, V2, (agree_menv n1 th1 th2 G A2) by (eapply env_below_mono; eauto).
      rewrite (agree_menv n th th1 G A1 B). exact Hhb. }
    destruct (IHb (bind xs vs G) (n1 + length xs) th2 t' Hb) as (t2 & e2 & n2 & th3 & G2 & L2 & A3 & U2 & E2 & _).
    { apply env_below_bind; [exact Bvs|eapply env_below_mono; eauto; lia]. }
    assert (A13 : agree n1 th1 th3) by (eapply agree_trans; [exact A2|exact A3|lia]).
    do 3 eexists. exists th3. split; [cbn [gen]; rewrite G1; fold vs; rewrite G2; reflexivity|]. split; [|split; [|exact E2]].
    + eapply agree_trans; [exact A1|exact A13|exact L1].
    + apply allp_cons; split.
      * rewrite (agree_app n1 th1 th3 t1 A13 B1), E1, app_ttuple.
        rewrite (agree_map _ th2 th3 vs A3 Bvs), V2. reflexivity.
      * apply allp_app; split; [eapply agree_unifies; eauto|exact U2].
  - (* lambda *)
    inversion H as [ | | | | | |? ? ? ts tb LEN Hhb]; subst.
    set (vs := map TVar (seq n (length xs))).
    set (th0 := ext n ts th).
    assert (A0 : agree n th th0) by apply agree_ext.
    assert (V0 : map (app th0) vs = ts) by (unfold vs, th0; rewrite <- LEN; apply map_ext_seqvars).
    assert (Bvs : Forall (below (n + length xs)) vs) by apply below_seqvars.
    assert (Hb : has D (menv th0 (bind (map Some xs) vs G)) b tb).
    { rewrite menv_bind, V0, (agree_menv n th th0 G A0 B). exact Hhb. }
    destruct (IHb (bind (map Some xs) vs G) (n + length xs) th0 tb Hb) as (t2 & e2 & n2 & th1 & G2 & L2 & A1 & U2 & E2 & _).
    { apply env_below_bind; [exact Bvs|eapply env_below_mono; eauto; lia]. }
    do 3 eexists. exists th1. split; [cbn [gen]; fold vs; rewrite G2; reflexivity|]. split; [|split; [exact U2|]].
    + eapply agree_trans; [exact A0|exact A1|lia].
    + rewrite app_tfun, (agree_map _ th0 th1 vs A1 Bvs), V0, E2; reflexivity.
Qed.

End GenComplete.

Lemma app_comp f g t : app f (app g t) = app (fun v => app f (g v)) t.
Proof. induction t; cbn; congruence. Qed.
Lemma app_id t : app TVar t = t.
Proof. induction t; cbn; congruence. Qed.
Lemma app_ext_vars f g t : (forall x, occurs x t = true -> f x = g x) -> app f t = app g t.
Proof. induction t as [y|a|l IHl r IHr]; cbn; intros H; auto.
  - apply H. apply Nat.eqb_refl.
  - f_equal; [apply IHl|apply IHr]; intros x O; apply H; rewrite O; auto using orb_true_r. Qed.
Lemma sub1_app x u t : sub1 x u t = app (fun v => if Nat.eqb x v then u else TVar v) t.
Proof. induction t; cbn; congruence. Qed.
Lemma app_seq_app sg : forall t, app_seq sg t = app (fun v => app_seq sg (TVar v)) t.
Proof. induction sg as [|(x,u) sg IH]; intros t; cbn [app_seq].
  - symmetry; apply app_id.
  - rewrite IH, sub1_app, app_comp. apply app_ext_vars. intros v _. cbn [sub1].
    destruct (Nat.eqb x v); [symmetry; apply IH|cbn; reflexivity]. Qed.
Lemma below0_app th t : below 0 t -> app th t = t.
Proof. induction t; cbn; intros B; try lia; auto. destruct B; f_equal; auto. Qed.
Lemma below_occurs n t x : below n t -> occurs x t = true -> x < n.
Proof. induction t as [y|a|l IHl r IHr]; cbn; intros B O; try discriminate.
  - apply Nat.eqb_eq in O; subst; exact B.
  - destruct B. apply orb_true_iff in O. destruct O; auto. Qed.

Lemma existsb_eqb_In x l : existsb (Nat.eqb x) l = true <-> In x l.
Proof. rewrite existsb_exists. split.
  - intros (y & I & E). apply Nat.eqb_eq in E; subst; exact I.
  - intros I; exists x; split; [exact I|apply Nat.eqb_refl]. Qed.

Lemma fo_vars_in t : forall acc x, In x (fo_vars t acc) <-> In x acc \/ occurs x t = true.
Proof. induction t as [y|a|l IHl r IHr]; intros acc x; cbn.
  - destruct (existsb (Nat.eqb y) acc) eqn:E.
    + apply existsb_eqb_In in E. split; [auto|]. intros [I|O]; [exact I|]. apply Nat.eqb_eq in O; subst; exact E.
    + rewrite in_app_iff. cbn. rewrite Nat.eqb_eq. intuition.
  - intuition discriminate.
  - rewrite IHr, IHl, orb_true_iff. tauto. Qed.

Lemma fo_vars_nodup t : forall acc, NoDup acc -> NoDup (fo_vars t acc).
Proof. induction t as [y|a|l IHl r IHr]; intros acc N; cbn; auto.
  destruct (existsb (Nat.eqb y) acc) eqn:E; auto.
  apply (NoDup_Add (Add_app y acc [])). rewrite app_nil_r. split; [exact N|].
  intros I. apply existsb_eqb_In in I. congruence. Qed.

Lemma fo_vars_list_in ts : forall acc x,
  In x (fo_vars_list ts acc) <-> In x acc \/ exists u, In u ts /\ occurs x u = true.
Proof. induction ts as [|t ts IH]; intros acc x; cbn.
  - split; [auto|]. intros [I|(u & [] & _)]; exact I.
  - rewrite IH, fo_vars_in. split.
    + intros [[I|O]|(u & I & O)]; eauto.
    + intros [I|(u & [<-|I] & O)]; eauto. Qed.

Lemma fo_vars_list_nodup ts : forall acc, NoDup acc -> NoDup (fo_vars_list ts acc).
Proof. induction ts; intros acc N; cbn; auto using fo_vars_nodup. Qed.

Definition inj_on (S:nat->Prop) (f:nat->nat) : Prop := forall x y, S x -> S y -> f x = f y -> x = y.

Lemma existsb_map_inj S f y acc : inj_on S f -> S y -> (forall x, In x acc -> S x) ->
  existsb (Nat.eqb (f y)) (map f acc) = existsb (Nat.eqb y) acc.
Proof. intros J Sy Sa.
  destruct (existsb (Nat.eqb y) acc) eqn:E.
  - apply existsb_eqb_In. apply existsb_eqb_In in E. apply in_map; exact E.
  - destruct (existsb (Nat.eqb (f y)) (map f acc)) eqn:E2; auto.
    apply existsb_eqb_In in E2. apply in_map_iff in E2. destruct E2 as (z & Ez & Iz).
    apply J in Ez; auto. subst z. apply existsb_eqb_In in Iz. congruence. Qed.

Lemma fo_vars_map S f t : inj_on S f -> forall acc,
  (forall x, In x acc -> S x) -> (forall x, occurs x t = true -> S x) ->
  fo_vars (app (fun v => TVar (f v)) t) (map f acc) = map f (fo_vars t acc).
Proof. intros J. induction t as [y|a|l IHl r IHr]; intros acc Sa St; cbn [app fo_vars]; auto.
  - assert (Sy : S y) by (apply St; cbn; apply Nat.eqb_refl).
    rewrite (existsb_map_inj S f y acc J Sy Sa).
    destruct (existsb (Nat.eqb y) acc); auto. rewrite map_app. reflexivity.
  - rewrite IHl; [rewrite IHr; auto|auto|].
    + intros x I. apply fo_vars_in in I. destruct I as [I|O]; auto. apply St; cbn; rewrite O; auto.
    + intros x O. apply St; cbn; rewrite O; auto using orb_true_r.
    + intros x O. apply St; cbn; rewrite O; auto. Qed.

Lemma fo_vars_list_map S f ts : inj_on S f -> forall acc,
  (forall x, In x acc -> S x) -> (forall u x, In u ts -> occurs x u = true -> S x) ->
  fo_vars_list (map (app (fun v => TVar (f v))) ts) (map f acc) = map f (fo_vars_list ts acc).
Proof. intros J. induction ts as [|t ts IH]; intros acc Sa St; cbn [map fo_vars_list]; auto.
  assert (Stt : forall x, occurs x t = true -> S x) by (intros x O; apply (St t); [left; reflexivity|exact O]).
  rewrite (fo_vars_map S f t J acc Sa Stt). apply IH.
  - intros x I. apply fo_vars_in in I. destruct I as [I|O]; auto.
  - intros u x I O. apply (St u); [right; exact I|exact O]. Qed.

Lemma index_of_nth x l : In x l -> nth (index_of x l) l 0 = x.
Proof. induction l as [|y l IH]; cbn; intros I; [contradiction|].
  destruct (Nat.eqb x y) eqn:E; [apply Nat.eqb_eq in E; auto|].
  destruct I as [->|I]; [rewrite Nat.eqb_refl in E; discriminate|auto]. Qed.

Lemma index_of_inj l : inj_on (fun x => In x l) (fun x => index_of x l).
Proof. intros x y Ix Iy E. rewrite <- (index_of_nth x l Ix), <- (index_of_nth y l Iy), E. reflexivity. Qed.

Lemma index_of_seq l : NoDup l -> map (fun x => index_of x l) l = seq 0 (length l).
Proof. induction l as [|a l IH]; intros N; cbn [map index_of length seq]; auto. inversion N; subst.
  rewrite Nat.eqb_refl. f_equal. rewrite <- seq_shift, <- IH by assumption. rewrite map_map.
  apply map_ext_in. intros x I. destruct (Nat.eqb x a) eqn:E; auto. apply Nat.eqb_eq in E; subst; contradiction. Qed.

Lemma rename_as_app vs t : rename vs t = app (fun v => TVar (index_of v vs)) t.
Proof. reflexivity. Qed.

Lemma rename_inv vs f t : (forall x, occurs x t = true -> In x vs) ->
  app (fun j => f (nth j vs 0)) (rename vs t) = app f t.
Proof. intros H. unfold rename. rewrite app_comp. apply app_ext_vars. intros x O. cbn.
  rewrite index_of_nth; auto. Qed.

Lemma fo_vars_list_rename ts : let vs := fo_vars_list ts [] in
  fo_vars_list (map (rename vs) ts) [] = seq 0 (length vs).
Proof. intros vs.
  assert (N : NoDup vs) by (apply fo_vars_list_nodup; constructor).
  change (@nil nat) with (map (fun x => index_of x vs) []) at 1.
  unfold rename. rewrite (fo_vars_list_map (fun x => In x vs) _ ts (index_of_inj vs)).
  - fold vs. apply index_of_seq; exact N.
  - intros x [].
  - intros u x I O. apply fo_vars_list_in. right; eauto. Qed.

Lemma menv_combine th xs : forall ts, menv th (combine xs ts) = combine xs (map (app th) ts).
Proof. induction xs as [|x xs IH]; intros [|t ts]; cbn [combine map menv]; auto.
  f_equal. apply IH. Qed.

Lemma env_below_combine n xs : forall ts, Forall (below n) ts -> env_below n (combine xs ts).
Proof. induction xs as [|x xs IH]; intros [|t ts] F; cbn [combine]; [apply allp_nil ..|].
  inversion F; subst. apply allp_cons. split; [assumption|apply IH; assumption]. Qed.

Lemma ann_eqs_in ps : forall i0 s t,
  In (s,t) (ann_eqs ps i0) <-> exists j x, nth_error ps j = Some (x, Some t) /\ s = TVar (i0 + j).
Proof. induction ps as [|(y,[a|]) ps IH]; intros i0 s t; cbn [ann_eqs].
  - split; [intros []|intros ([|j] & x & E & _); discriminate].
  - cbn [In]. rewrite IH. split.
    + intros [E|(j & x & E & ->)].
      * injection E as <- <-. exists 0, y. split; [reflexivity|f_equal; lia].
      * exists (S j), x. split; [exact E|f_equal; lia].
    + intros ([|j] & x & E & ->); cbn in E.
      * injection E as <- <-. left. do 2 f_equal. lia.
      * right. exists j, x. split; [exact E|f_equal; lia].
  - rewrite IH. split.
    + intros (j & x & E & ->). exists (S j), x. split; [exact E|f_equal; lia].
    + intros ([|j] & x & E & ->); cbn in E; [discriminate|]. exists j, x. split; [exact E|f_equal; lia]. Qed.

Definition fun_ok (fd:fundef) : Prop :=
  forall i x a, nth_error (f_params fd) i = Some (x, Some a) -> below 0 a.

Lemma unifies_ann th ps : (forall i x a, nth_error ps i = Some (x, Some a) -> below 0 a) ->
  (unifies th (ann_eqs ps 0) <-> forall i x a, nth_error ps i = Some (x, Some a) -> th i = a).
Proof. intros OK. split.
  - intros U i x a E. specialize (U (TVar i) a). rewrite (below0_app th a (OK _ _ _ E)) in U. apply U.
    apply ann_eqs_in. exists i, x. auto.
  - intros H s t I. apply ann_eqs_in in I. destruct I as (j & x & E & ->). cbn.
    rewrite (below0_app th t (OK _ _ _ E)). eauto. Qed.

Lemma map_nth_seq (l:list ty) d : map (fun v => nth v l d) (seq 0 (length l)) = l.
Proof. induction l as [|a l IH]; cbn [length seq map]; auto. f_equal.
  rewrite <- seq_shift, map_map. exact IH. Qed.

Section InferFun.
Variable D : decls.
Hypothesis DOK : decls_ok D.

Lemma param_names_length fd : length (param_names fd) = length (f_params fd).
Proof. apply map_length. Qed.

(** every instance of the inferred scheme is derivable (in particular the scheme itself, rho = TVar) *)
Theorem infer_sound : forall fuel fd k ptys rty,
  fun_ok fd -> infer_fun D fuel fd = Inferred k ptys rty ->
  forall rho, has_fun D fd (map (app rho) ptys) (app rho rty).
Proof.
  intros fuel fd k ptys rty OK H rho. unfold infer_fun in H.
  destruct (gen D _ (f_body fd) _) as [[[t es] n']|] eqn:GE; [|discriminate].
  destruct (unify fuel _) as [sg| |] eqn:UE; try discriminate.
  set (np := length (f_params fd)) in *.
  set (ps := map (fun i => app_seq sg (TVar i)) (seq 0 np)) in *.
  set (vs := fo_vars_list (ps ++ [app_seq sg t]) []) in *.
  injection H as <- <- <-.
  set (th := fun v => app rho (rename vs (app_seq sg (TVar v)))).
  assert (KEY : forall u, app th u = app rho (rename vs (app_seq sg u))).
  { intros u. rewrite (app_seq_app sg u). unfold rename. rewrite !app_comp. apply app_ext_vars.
    intros x _. unfold th, rename. rewrite app_comp. reflexivity. }
  assert (U : unifies th (ann_eqs (f_params fd) 0 ++ es)).
  { intros a b I. rewrite !KEY. f_equal. f_equal. apply (unify_sound _ _ _ UE); exact I. }
  apply allp_app in U. destruct U as (Ua & Ue).
  assert (PT : map (app rho) (map (rename vs) ps) = map th (seq 0 np)).
  { unfold ps. rewrite !map_map. reflexivity. }
  split; [|split].
  - rewrite PT, map_length, seq_length. reflexivity.
  - intros i x a E. rewrite PT.
    assert (Li : i < np) by (apply nth_error_Some; unfold np; rewrite E; discriminate).
    erewrite map_nth_error; [|apply nth_error_seq; exact Li]. cbn. f_equal.
    apply (proj1 (unifies_ann th _ OK) Ua i x a E).
  - rewrite PT, <- KEY. pose proof (gen_sound D _ _ _ _ _ _ GE th Ue) as HS.
    rewrite menv_combine, map_map in HS. exact HS.
Qed.

Corollary infer_sound_scheme fuel fd k ptys rty :
  fun_ok fd -> infer_fun D fuel fd = Inferred k ptys rty -> has_fun D fd ptys rty.
Proof. intros OK H. pose proof (infer_sound fuel fd k ptys rty OK H TVar) as HS.
  rewrite (map_ext _ (fun t => t) app_id), map_id, app_id in HS. exact HS. Qed.

Lemma has_fun_gen fd ptys' rty' : fun_ok fd -> has_fun D fd ptys' rty' ->
  exists t es n' th', gen D (combine (param_names fd) (map TVar (seq 0 (length (f_params fd)))))
                          (f_body fd) (length (f_params fd)) = Some (t, es, n') /\
    unifies th' (ann_eqs (f_params fd) 0 ++ es) /\
    map th' (seq 0 (length (f_params fd))) = ptys' /\ app th' t = rty'.
Proof.
  intros OK (LEN & ANN & HAS). set (np := length (f_params fd)) in *.
  set (th := fun v => nth v ptys' (TAtom 0)).
  assert (MT : map th (seq 0 np) = ptys') by (rewrite <- LEN; apply map_nth_seq).
  assert (HAS0 : has D (menv th (combine (param_names fd) (map TVar (seq 0 np)))) (f_body fd) rty').
  { rewrite menv_combine, map_map. rewrite <- MT in HAS. exact HAS. }
  destruct (gen_complete D DOK _ _ np th rty' HAS0) as (t & es & n' & th' & GE & _ & AG & UE & ET & _).
  { apply env_below_combine, (below_seqvars 0). }
  exists t, es, n', th'. split; [exact GE|]. split; [|split; [|exact ET]].
  - apply allp_app. split; [|exact UE]. apply (unifies_ann th' _ OK). intros i x a E.
    assert (Li : i < np) by (apply nth_error_Some; unfold np; rewrite E; discriminate).
    rewrite AG by exact Li. apply nth_error_nth, ANN with (x := x), E.
  - rewrite <- MT. apply map_ext_in. intros i Ii. apply in_seq in Ii. apply AG. lia.
Qed.

(** the inferred scheme is principal: every derivable type of the function is an instance of it *)
Theorem infer_principal : forall fuel fd k ptys rty,
  fun_ok fd -> infer_fun D fuel fd = Inferred k ptys rty ->
  forall ptys' rty', has_fun D fd ptys' rty' ->
  exists rho, ptys' = map (app rho) ptys /\ rty' = app rho rty.
Proof.
  intros fuel fd k ptys rty OK H ptys' rty' HF. unfold infer_fun in H.
  destruct (has_fun_gen fd ptys' rty' OK HF) as (t & es & n' & th' & GE & UALL & <- & <-).
  rewrite GE in H. set (np := length (f_params fd)) in *.
  destruct (unify fuel _) as [sg| |] eqn:UN; try discriminate.
  set (ps := map (fun i => app_seq sg (TVar i)) (seq 0 np)) in *.
  set (vs := fo_vars_list (ps ++ [app_seq sg t]) []) in *.
  injection H as <- <- <-.
  pose proof (unify_mgu _ _ _ UN th' UALL) as MGU.
  exists (fun j => th' (nth j vs 0)).
  assert (INV : forall u, In u (ps ++ [app_seq sg t]) ->
                app (fun j => th' (nth j vs 0)) (rename vs u) = app th' u).
  { intros u I. apply rename_inv. intros x O. apply fo_vars_list_in. right; eauto. }
  split.
  - unfold ps. rewrite !map_map. apply map_ext_in. intros i Ii.
    rewrite INV; [rewrite MGU; reflexivity|].
    apply in_or_app; left. apply in_map_iff. eauto.
  - rewrite INV; [rewrite MGU; auto|]. apply in_or_app; right; left; reflexivity.
Qed.

(** a typable function is never reported ill-typed *)
Theorem infer_complete : forall fuel fd ptys' rty',
  fun_ok fd -> has_fun D fd ptys' rty' -> infer_fun D fuel fd <> IllTyped.
Proof.
  intros fuel fd ptys' rty' OK HF H. unfold infer_fun in H.
  destruct (has_fun_gen fd ptys' rty' OK HF) as (t & es & n' & th' & GE & UALL & _).
  rewrite GE in H.
  destruct (unify fuel _) as [sg| |] eqn:UN; try discriminate.
  exact (unify_complete _ _ UN th' UALL).
Qed.

Theorem infer_fuel_sufficient : forall fd, exists n, forall m, n <= m -> infer_fun D m fd <> OutOfFuel.
Proof.
  intros fd. unfold infer_fun.
  destruct (gen D _ (f_body fd) _) as [[[t es] n']|]; [|exists 0; intros; discriminate].
  destruct (unify_fuel_sufficient (ann_eqs (f_params fd) 0 ++ es)) as (n & Hn).
  exists n. intros m L. specialize (Hn m L). destruct (unify m _); try discriminate. congruence.
Qed.

(** type parameters are numbered 0..k-1 in order of first occurrence in the parameter list, then the result *)
Theorem numbering_canonical : forall fuel fd k ptys rty,
  infer_fun D fuel fd = Inferred k ptys rty -> fo_vars_list (ptys ++ [rty]) [] = seq 0 k.
Proof.
  intros fuel fd k ptys rty H. unfold infer_fun in H.
  destruct (gen D _ (f_body fd) _) as [[[t es] n']|]; [|discriminate].
  destruct (unify fuel _) as [sg| |]; try discriminate.
  set (ps := map (fun i => app_seq sg (TVar i)) (seq 0 (length (f_params fd)))) in *.
  injection H as <- <- <-.
  change [rename (fo_vars_list (ps ++ [app_seq sg t]) []) (app_seq sg t)]
    with (map (rename (fo_vars_list (ps ++ [app_seq sg t]) [])) [app_seq sg t]).
  rewrite <- map_app. apply fo_vars_list_rename.
Qed.

End InferFun.

Lemma app_fix_var f u : app f u = u -> forall x, occurs x u = true -> f x = TVar x.
Proof. induction u as [y|a|l IHl r IHr]; cbn; intros E x O; try discriminate.
  - apply Nat.eqb_eq in O; subst; exact E.
  - injection E as El Er. apply orb_true_iff in O. destruct O; auto. Qed.

(* r1 o r2 fixes the variables of [ts], so on them r2 is a renaming [g], injective; first-occurrence
   numbering commutes with an injective renaming, and both lists are numbered seq 0 k: g is the identity *)
Lemma mutual_instance_canonical ts ts' k k' r1 r2 :
  ts = map (app r1) ts' -> ts' = map (app r2) ts ->
  fo_vars_list ts [] = seq 0 k -> fo_vars_list ts' [] = seq 0 k' -> ts = ts'.
Proof.
  intros E1 E2 C C'.
  set (S := fun x => exists u, In u ts /\ occurs x u = true).
  set (g := fun x => match r2 x with TVar y => y | _ => 0 end).
  assert (FIX : forall u, In u ts -> app (fun v => app r1 (r2 v)) u = u).
  { intros u I. rewrite <- app_comp. apply (ext_in_map (f := fun u => app r1 (app r2 u)) (g := fun u => u) (l := ts)); [|exact I].
    rewrite map_id, <- map_map, <- E2, <- E1. reflexivity. }
  assert (REN : forall x, S x -> r2 x = TVar (g x) /\ r1 (g x) = TVar x).
  { intros x (u & I & O). pose proof (app_fix_var _ u (FIX u I) x O) as F. cbn in F.
    unfold g. destruct (r2 x) as [y|a|l r]; cbn in F; try discriminate. auto. }
  assert (INJ : inj_on S g).
  { intros x y Sx Sy E. destruct (REN x Sx) as (_ & A), (REN y Sy) as (_ & B). rewrite E in A. congruence. }
  assert (E2' : ts' = map (app (fun v => TVar (g v))) ts).
  { rewrite E2. apply map_ext_in. intros u I. apply app_ext_vars. intros x O. apply REN. exists u; auto. }
  assert (FO : fo_vars_list ts' [] = map g (fo_vars_list ts [])).
  { rewrite E2'. change (@nil nat) with (map g []) at 1. apply (fo_vars_list_map S g ts INJ).
    - intros x [].
    - intros u x I O. exists u; auto. }
  rewrite C, C' in FO.
  assert (K : k' = k) by (apply (f_equal (@length nat)) in FO; rewrite map_length, !seq_length in FO; exact FO).
  subst k'.
  assert (ID : forall i, i < k -> g i = i).
  { intros i L. apply (f_equal (fun l => nth i l 0)) in FO.
    rewrite seq_nth in FO by exact L. cbn in FO.
    rewrite (nth_indep _ 0 (g 0)), map_nth, seq_nth in FO by (try rewrite map_length, seq_length; exact L).
    cbn in FO. auto. }
  rewrite E2. symmetry. rewrite <- (map_id ts) at 2. apply map_ext_in. intros u I.
  rewrite <- (app_id u) at 2. apply app_ext_vars. intros x O.
  assert (Sx : S x) by (exists u; auto). destruct (REN x Sx) as (R & _). rewrite R. f_equal. apply ID.
  assert (Ix : In x (fo_vars_list ts [])) by (apply fo_vars_list_in; right; exists u; auto).
  rewrite C in Ix. apply in_seq in Ix. lia.
Qed.

Lemma set_ann_names ps : forall i a, map fst (set_ann ps i a) = map fst ps.
Proof. induction ps as [|(x,o) ps IH]; intros [|i] a; cbn; auto. f_equal; apply IH. Qed.
Lemma set_ann_length ps : forall i a, length (set_ann ps i a) = length ps.
Proof. induction ps as [|(x,o) ps IH]; intros [|i] a; cbn; auto. Qed.
Lemma set_ann_same ps : forall i a y b, nth_error (set_ann ps i a) i = Some (y, Some b) -> b = a.
Proof. induction ps as [|(z,o) ps IH]; intros [|i] a y b E; cbn in E; try discriminate; [congruence|eauto]. Qed.
Lemma set_ann_other ps : forall i a j, j <> i -> nth_error (set_ann ps i a) j = nth_error ps j.
Proof. induction ps as [|(y,o') ps IH]; intros [|i] a [|j] N; cbn; auto; try congruence. Qed.
Lemma set_ann_inv ps i a j y b :
  nth_error (set_ann ps i a) j = Some (y, Some b) -> j = i /\ b = a \/ nth_error ps j = Some (y, Some b).
Proof. intros Ej. destruct (Nat.eq_dec j i) as [->|N].
  - left. split; [reflexivity|exact (set_ann_same _ _ _ _ _ Ej)].
  - rewrite set_ann_other in Ej by exact N. auto. Qed.

Section Erasure.
Variable D : decls.
Hypothesis DOK : decls_ok D.

Lemma has_fun_erase fd i x a Q q :
  nth_error (f_params fd) i = Some (x, None) ->
  has_fun D (annotate fd i a) Q q -> has_fun D fd Q q.
Proof.
  intros E (L & A & H). unfold annotate, param_names in *. cbn [f_params f_body] in *.
  rewrite set_ann_length in L. rewrite set_ann_names in H. split; [exact L|split; [|exact H]].
  intros j y b Ej. destruct (Nat.eq_dec j i) as [->|N]; [congruence|].
  apply (A j y b). rewrite set_ann_other by exact N. exact Ej.
Qed.

Lemma has_fun_annotate fd i a Q q :
  nth_error Q i = Some a ->
  has_fun D fd Q q -> has_fun D (annotate fd i a) Q q.
Proof.
  intros EQ (L & A & H). unfold has_fun, annotate, param_names in *. cbn [f_params f_body] in *.
  split; [rewrite set_ann_length; exact L|split; [|rewrite set_ann_names; exact H]].
  intros j y b Ej. destruct (set_ann_inv _ _ _ _ _ _ Ej) as [(-> & ->)|Ej']; eauto.
Qed.

Lemma fun_ok_annotate fd i a :
  below 0 a -> fun_ok fd -> fun_ok (annotate fd i a).
Proof.
  intros Ba OK j y b Ej. unfold annotate in Ej; cbn [f_params] in Ej.
  destruct (set_ann_inv _ _ _ _ _ _ Ej) as [(-> & ->)|Ej']; eauto.
Qed.

(** If the function without the annotation already gets the ground type [a] for parameter [i],
    then adding the annotation [x : a] does not change the inferred scheme. *)
Theorem annotation_erasure : forall fd i x a fuel fuel' k P r,
  fun_ok fd -> below 0 a ->
  nth_error (f_params fd) i = Some (x, None) ->
  infer_fun D fuel fd = Inferred k P r ->
  nth_error P i = Some a ->
  infer_fun D fuel' (annotate fd i a) <> OutOfFuel ->
  infer_fun D fuel' (annotate fd i a) = Inferred k P r.
Proof.
  intros fd i x a fuel fuel' k P r OK Ba E INF EP NF.
  pose proof (fun_ok_annotate fd i a Ba OK) as OK'.
  pose proof (infer_sound_scheme D fuel fd k P r OK INF) as HP.
  pose proof (has_fun_annotate fd i a P r EP HP) as HP'.
  destruct (infer_fun D fuel' (annotate fd i a)) as [k' P' r'| |] eqn:INF'.
  - (* both schemes are principal, hence instances of each other; both are canonically numbered *)
    destruct (infer_principal D DOK _ _ _ _ _ OK' INF' P r HP') as (r1 & EP1 & ER1).
    pose proof (has_fun_erase fd i x a P' r' E (infer_sound_scheme D fuel' _ k' P' r' OK' INF')) as HQ.
    destruct (infer_principal D DOK _ _ _ _ _ OK INF P' r' HQ) as (r2 & EP2 & ER2).
    pose proof (numbering_canonical D _ _ _ _ _ INF) as C.
    pose proof (numbering_canonical D _ _ _ _ _ INF') as C'.
    assert (EQ : P ++ [r] = P' ++ [r']).
    { apply (mutual_instance_canonical _ _ k k' r1 r2); auto.
      - rewrite map_app. cbn. congruence.
      - rewrite map_app. cbn. congruence. }
    apply app_inj_tail in EQ. destruct EQ as (-> & ->).
    assert (k' = k).
    { apply (f_equal (@length nat)) in C. apply (f_equal (@length nat)) in C'. rewrite seq_length in *. congruence. }
    subst. reflexivity.
  - exfalso. exact (infer_complete D DOK fuel' _ P r OK' HP' INF').
  - congruence.
Qed.

End Erasure.

Lemma occurs_shift n t v : occurs v (shift n t) = true -> exists x, v = n + x /\ occurs x t = true.
Proof. induction t as [y|a|l IHl r IHr]; cbn; intros O; try discriminate.
  - apply Nat.eqb_eq in O. exists y. split; [exact O|apply Nat.eqb_refl].
  - apply orb_true_iff in O. destruct O as [O|O]; [destruct (IHl O) as (x & -> & Ox)|destruct (IHr O) as (x & -> & Ox)];
      exists x; rewrite Ox; auto using orb_true_r. Qed.

Section Instances.
Variable D : decls.
Hypothesis DOK : decls_ok D.

Lemma instance_vars p s G args n t es n' :
  prim_scheme D p = Some s -> gen D G (XPrim p args) n = Some (t, es, n') ->
  forall u v, In u (sres s :: sargs s) -> occurs v (shift n u) = true -> n <= v < n'.
Proof.
  intros PS H u v I O. destruct (prim_scheme_ok _ _ _ DOK PS) as (SA & SR).
  assert (Bu : below (sk s) u) by (destruct I as [<-|I]; [exact SR|exact (proj1 (Forall_forall _ _) SA u I)]).
  cbn [gen] in H. rewrite PS in H. destruct (arity_ok _ _ _); try discriminate.
  destruct (gen_args (gen D G) args (n + sk s)) as [[[tas eas] m]|] eqn:GA; try discriminate.
  injection H as _ _ <-.
  assert (n + sk s <= m).
  { eapply gen_args_counter; [|exact GA]. apply Forall_forall. intros a _ n0 t0 es0 n0' Hg. eapply gen_counter; eauto. }
  destruct (occurs_shift _ _ _ O) as (x & -> & Ox). pose proof (below_occurs _ _ _ Bu Ox). lia.
Qed.

(** Every reference to a primitive / global of scheme [s] at counter [n] uses the instance
    [shift n]: its variables are n .. n+sk-1, all below the counter the reference returns.
    Hence two references (the later one starts at a counter >= the one the earlier returned)
    are instantiated with disjoint variables: unifying one never constrains the other. *)
Theorem instances_independent : forall p s G1 args1 n1 t1 es1 n1' G2 args2 n2 t2 es2 n2',
  prim_scheme D p = Some s ->
  gen D G1 (XPrim p args1) n1 = Some (t1, es1, n1') ->
  gen D G2 (XPrim p args2) n2 = Some (t2, es2, n2') ->
  n1' <= n2 ->
  forall u1 u2 v, In u1 (sres s :: sargs s) -> In u2 (sres s :: sargs s) ->
    occurs v (shift n1 u1) = true -> occurs v (shift n2 u2) = true -> False.
Proof.
  intros p s G1 args1 n1 t1 es1 n1' G2 args2 n2 t2 es2 n2' PS H1 H2 L u1 u2 v I1 I2 O1 O2.
  destruct (instance_vars _ _ _ _ _ _ _ _ PS H1 u1 v I1 O1), (instance_vars _ _ _ _ _ _ _ _ PS H2 u2 v I2 O2). lia.
Qed.

End Instances.
