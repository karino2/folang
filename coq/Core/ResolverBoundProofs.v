(** C02/C16 — the bounded resolver loop: termination without any assumption, agreement with the
    unbounded loop on converging inputs, and the two diverging relation sets. *)
From Coq Require Import NArith Arith Lia Bool List.
From FoVerif Require Import Core.Unify Core.Infer Core.Resolver Core.ResolverProofs Core.ResolverBound.
Import ListNotations.

Section Proofs.
Variable later : nat -> nat -> bool.
Variable enum : list nat -> list nat.

(** termination: the measure is the round counter *)
Lemma update_resolver_n_fuel : forall fuel count work st rels,
  (1 <= fuel)%nat -> (1002 <= N.of_nat fuel + count)%N ->
  update_resolver_n later enum fuel count work st rels <> BFuel.
Proof.
  induction fuel as [|n IH]; intros count work st rels H1 H2; [lia|]. cbn [update_resolver_n].
  destruct (N.ltb round_bound count) eqn:E1; [cbn; discriminate|].
  destruct (N.ltb work_bound work) eqn:E2; [cbn; discriminate|]. cbn [orb].
  destruct (update_round later enum st rels) as [st1 nrels g|]; [|discriminate].
  destruct nrels as [|r0 nrels]; [discriminate|].
  apply N.ltb_ge in E1. unfold round_bound in E1.
  assert (K : update_resolver_n later enum n (count + 1) (work + N.of_nat (length (r0 :: nrels))) st1 (r0 :: nrels) <> BFuel).
  { apply IH; lia. }
  destruct (update_resolver_n later enum n (count + 1) (work + N.of_nat (length (r0 :: nrels))) st1 (r0 :: nrels));
    congruence.
Qed.

Theorem update_resolver_b_terminates : forall fuel st rels,
  (1002 <= N.of_nat fuel)%N -> update_resolver_b later enum fuel st rels <> BFuel.
Proof. intros fuel st rels H. unfold update_resolver_b. apply update_resolver_n_fuel; lia. Qed.

Lemma update_resolver_n_agrees : forall fuel count work st rels st' g r w,
  update_resolver later enum fuel st rels = LDone st' g ->
  run_stats later enum fuel st rels = Some (r, w) ->
  (count + r <= round_bound)%N -> (work + w <= work_bound)%N ->
  update_resolver_n later enum fuel count work st rels = BDone st' g.
Proof.
  induction fuel as [|n IH]; intros count work st rels st' g r w H S Hr Hw; cbn in H; [discriminate|].
  cbn [update_resolver_n]. cbn [run_stats] in S.
  assert (E1 : N.ltb round_bound count = false) by (apply N.ltb_ge; lia).
  assert (E2 : N.ltb work_bound work = false) by (apply N.ltb_ge; lia).
  rewrite E1, E2. cbn [orb].
  destruct (update_round later enum st rels) as [st1 nrels g1|]; [|discriminate].
  destruct nrels as [|r0 nrels]; [congruence|].
  destruct (run_stats later enum n st1 (r0 :: nrels)) as [(r1, w1)|] eqn:S1; [|discriminate].
  set (L := N.of_nat (length (r0 :: nrels))) in *.
  injection S as <- <-.
  destruct (update_resolver later enum n st1 (r0 :: nrels)) as [s2 g2| |] eqn:U; try discriminate.
  injection H as <- <-.
  rewrite (IH (count + 1)%N (work + L)%N st1 (r0 :: nrels) s2 g2 r1 w1 U S1); [reflexivity|lia|lia].
Qed.

Theorem update_resolver_b_agrees : forall fuel st rels st' g r w,
  update_resolver later enum fuel st rels = LDone st' g ->
  run_stats later enum fuel st rels = Some (r, w) ->
  (r <= round_bound)%N -> (w <= work_bound)%N ->
  update_resolver_b later enum fuel st rels = BDone st' g.
Proof. intros. unfold update_resolver_b. eapply update_resolver_n_agrees; eauto. Qed.

Lemma run_stats_defined : forall fuel st rels st' g,
  update_resolver later enum fuel st rels = LDone st' g -> exists r w, run_stats later enum fuel st rels = Some (r, w).
Proof.
  induction fuel as [|n IH]; intros st rels st' g H; cbn in H; [discriminate|]. cbn [run_stats].
  destruct (update_round later enum st rels) as [st1 nrels g1|]; [|discriminate].
  destruct nrels as [|r0 nrels]; [eauto|].
  destruct (update_resolver later enum n st1 (r0 :: nrels)) as [s2 g2| |] eqn:U; try discriminate.
  destruct (IH _ _ _ _ U) as (r & w & E). rewrite E. eauto.
Qed.

Lemma self_feeding_stopped Inv : self_feeding later enum Inv ->
  forall fuel count work st rels, Inv st rels ->
  update_resolver_n later enum fuel count work st rels = BNoConv \/
  update_resolver_n later enum fuel count work st rels = BFuel.
Proof.
  intros SF. induction fuel as [|n IH]; intros count work st rels I; [right; reflexivity|]. cbn [update_resolver_n].
  destruct (_ || _)%bool; [left; reflexivity|].
  destruct (SF st rels I) as (st' & R' & g & -> & NE & I'). destruct R' as [|r R']; [congruence|].
  destruct (IH (count + 1)%N (work + N.of_nat (length (r :: R')))%N st' (r :: R') I') as [-> | ->]; auto.
Qed.

Theorem self_feeding_reported Inv : self_feeding later enum Inv ->
  forall st rels, Inv st rels -> update_resolver_b later enum bound_fuel st rels = BNoConv.
Proof.
  intros SF st rels I. destruct (self_feeding_stopped Inv SF bound_fuel 0 0 st rels I) as [E|E]; [exact E|].
  apply update_resolver_b_terminates in E; [destruct E|reflexivity].
Qed.

End Proofs.

(** x = (x, x) together with x = ((x, x), (x, x)): the number of relations doubles in every pass *)
Definition x1 : ty := TVar 1.
Definition rels_dbl : list rel := [(1, ttuple [x1; x1]); (1, ttuple [ttuple [x1; x1]; ttuple [x1; x1]])].
Definition rels_slc : list rel := [(1, tslice x1); (1, tslice (tslice x1))].

Example doubling_relations_grow :
  match rels_after Nat.ltb enum_id 5 [] rels_dbl with
  | Some R => (32 <=? length R) = true
  | None => False end.
Proof. vm_compute. reflexivity. Qed.

Example doubling_relations_double :
  map (fun k => option_map (@length rel) (rels_after Nat.ltb enum_id k [] rels_dbl)) [1; 2; 3; 4; 5; 6; 7; 8]
  = [Some 3; Some 6; Some 12; Some 24; Some 48; Some 96; Some 192; Some 384].
Proof. vm_compute. reflexivity. Qed.

Lemma doubling_self_feeding :
  self_feeding Nat.ltb enum_id (fun st R =>
    st = [] /\ R = rels_dbl \/
    recreated 1 (ttuple [x1; x1]) (ttuple [ttuple [x1; x1]; ttuple [x1; x1]]) st R).
Proof.
  eapply recreated_from with (R0 := [(1, ttuple [x1; x1]); (1, ttuple [x1; x1])]);
    [discriminate|reflexivity|repeat constructor|discriminate|vm_compute; reflexivity|].
  split; [reflexivity|]. split; [repeat constructor|discriminate].
Qed.

(** the bounded loop answers the diagnostic on both sets (the work bound stops the first,
    the round bound the second) *)
Example bounded_loop_reports_doubling : bsolve_rels Nat.ltb enum_id bound_fuel rels_dbl = BSNoConv.
Proof. unfold bsolve_rels.
  rewrite (self_feeding_reported _ _ _ doubling_self_feeding); [reflexivity|left; split; reflexivity]. Qed.

Example bounded_loop_reports_slices : bsolve_rels Nat.ltb enum_id bound_fuel rels_slc = BSNoConv.
Proof. unfold bsolve_rels.
  rewrite (self_feeding_reported _ _ _ slices_self_feeding); [reflexivity|left; split; reflexivity]. Qed.

(** and converging inputs are untouched, e.g. T0 = []T1, T1 = int, T0 = []T2 *)
Example bounded_loop_solves :
  match bsolve_rels Nat.ltb enum_id bound_fuel [(0, tslice (TVar 1)); (1, tint); (0, tslice (TVar 2))] with
  | BSSolved st false => resolve_type 10 st (TVar 2) = ROk tint /\ resolve_type 10 st (TVar 0) = ROk (tslice tint)
  | _ => False end.
Proof. vm_compute. split; reflexivity. Qed.
