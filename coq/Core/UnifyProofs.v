(** C02 — proofs about Core/Unify.v: soundness, most-generality, completeness, termination. *)
From Coq Require Import List Arith Lia Bool.
From FoVerif Require Import Core.Unify.
Import ListNotations.

Lemma app_sub1 th x u t : th x = app th u -> app th (sub1 x u t) = app th t.
Proof. intros H; induction t as [y|a|l IHl r IHr]; cbn; auto.
  - destruct (Nat.eqb x y) eqn:E; [apply Nat.eqb_eq in E; subst; auto|reflexivity].
  - congruence. Qed.

Lemma unifies_sub1 th x u es : th x = app th u -> unifies th es -> unifies th (sub1_eqs x u es).
Proof. intros H U s t I. unfold sub1_eqs in I. apply in_map_iff in I. destruct I as ((s0,t0) & E & I).
  inversion E; subst. rewrite !app_sub1 by exact H. apply U; exact I. Qed.

Lemma unifies_sub1_inv th x u es : th x = app th u -> unifies th (sub1_eqs x u es) -> unifies th es.
Proof. intros H U s t I. rewrite <- (app_sub1 th x u s H), <- (app_sub1 th x u t H). apply U.
  unfold sub1_eqs. apply in_map_iff. exists (s,t); auto. Qed.

Lemma app_seq_node sg l r : app_seq sg (TNode l r) = TNode (app_seq sg l) (app_seq sg r).
Proof. revert l r; induction sg as [|(x,u) sg IH]; intros; cbn; auto. Qed.

Lemma sub1_notocc x u t : occurs x t = false -> sub1 x u t = t.
Proof. induction t as [y|a|l IHl r IHr]; cbn; intros H; auto.
  - rewrite H; reflexivity.
  - apply orb_false_iff in H; destruct H; f_equal; auto. Qed.

(* towards the occurs check: the image of a term is at least as big as that of a variable in it *)
Lemma size_app_occurs th x t : occurs x t = true -> size (th x) <= size (app th t).
Proof. induction t as [y|a|l IHl r IHr]; cbn; intros H; try discriminate.
  - apply Nat.eqb_eq in H; subst; lia.
  - apply orb_true_iff in H; destruct H as [H|H]; [specialize (IHl H)|specialize (IHr H)]; lia. Qed.

Lemma occurs_no_unifier th x t : occurs x t = true -> t <> TVar x -> th x <> app th t.
Proof. intros O N E. destruct t as [y|a|l r]; cbn in *; try discriminate.
  - apply Nat.eqb_eq in O; subst; congruence.
  - apply orb_true_iff in O. assert (size (th x) < size (app th (TNode l r))).
    { cbn. destruct O as [O|O]; [pose proof (size_app_occurs th x l O)|pose proof (size_app_occurs th x r O)]; lia. }
    cbn in H. rewrite E in H. cbn in H. lia. Qed.

(** [unifies th], [solves sg], [evars_in V] (and [eqs_below n], [env_below n] of Core/InferProofs.v) unfold to
    [allp R] for their relation [R]: the lemmas below apply to them as they are, [R] is found by unification *)
Definition allp {A B} (R:A->B->Prop) (l:list (A*B)) : Prop := forall a b, In (a,b) l -> R a b.

Lemma allp_nil {A B} (R:A->B->Prop) : allp R [].
Proof. intros ? ? []. Qed.
Lemma allp_cons {A B} (R:A->B->Prop) a b l : allp R ((a,b)::l) <-> R a b /\ allp R l.
Proof. split.
  - intros U; split; [apply U; left; reflexivity|intros x y I; apply U; right; exact I].
  - intros (E & U) x y [I|I]; [injection I as <- <-; exact E|auto]. Qed.
Lemma allp_app {A B} (R:A->B->Prop) l1 l2 : allp R (l1 ++ l2) <-> allp R l1 /\ allp R l2.
Proof. unfold allp. split.
  - intros U; split; intros s t I; apply U; apply in_or_app; auto.
  - intros (U1 & U2) s t I; apply in_app_or in I; destruct I; auto. Qed.

Lemma vars_in_node V a b : vars_in V (TNode a b) <-> vars_in V a /\ vars_in V b.
Proof. unfold vars_in; cbn. split.
  - intros H; split; intros x O; apply H; rewrite O; auto using orb_true_r.
  - intros (A & B) x O. apply orb_true_iff in O. destruct O; auto. Qed.
(** the elimination step of [unify] (a [let] there) *)
Definition elim (n:nat) (r:list eqn) (x:nat) (u:ty) : res :=
  if occurs x u then Clash
  else match unify n (sub1_eqs x u r) with Ok sg => Ok ((x,u)::sg) | Clash => Clash | Fuel => Fuel end.

(** a view of [unify] at a first equation s = t: the case it falls under, with its answer as a
    function of the fuel left *)
Inductive step (r:list eqn) : ty -> ty -> (nat -> res) -> Prop :=
| step_drop s : step r s s (fun n => unify n r)
| step_elim x u : u <> TVar x -> step r (TVar x) u (fun n => elim n r x u)
| step_swap x u : u <> TVar x -> step r u (TVar x) (fun n => elim n r x u)
| step_split a b c d : step r (TNode a b) (TNode c d) (fun n => unify n ((a,c)::(b,d)::r))
| step_clash s t : (forall th, app th s <> app th t) -> step r s t (fun _ => Clash).

Lemma unify_step s t r : exists K, step r s t K /\ forall n, unify (S n) ((s,t)::r) = K n.
Proof.
  destruct s as [x|a|a b], t as [y|c|c d];
    try (eexists; split; [constructor; try discriminate; intros th; cbn; discriminate|reflexivity]).
  - destruct (Nat.eqb_spec x y) as [->|N].
    + exists (fun n => unify n r). split; [apply step_drop|intros n; cbn; rewrite Nat.eqb_refl; reflexivity].
    + exists (fun n => elim n r x (TVar y)). split; [apply step_elim; congruence|].
      intros n. unfold elim. cbn. apply Nat.eqb_neq in N. rewrite N. reflexivity.
  - destruct (Nat.eqb_spec a c) as [->|N].
    + exists (fun n => unify n r). split; [apply step_drop|intros n; cbn; rewrite Nat.eqb_refl; reflexivity].
    + exists (fun _ => Clash). split; [apply step_clash; intros th E; cbn in E; congruence|].
      intros n. cbn. apply Nat.eqb_neq in N. rewrite N. reflexivity.
Qed.

Lemma solves_elim x u sg r : occurs x u = false -> solves sg (sub1_eqs x u r) ->
  solves ((x,u)::sg) ((TVar x, u)::r).
Proof. intros O S. apply allp_cons. split.
  - cbn. rewrite Nat.eqb_refl, (sub1_notocc _ _ _ O). reflexivity.
  - intros s t I. cbn. apply S. unfold sub1_eqs. apply in_map_iff. exists (s,t); auto. Qed.

Theorem unify_sound : forall n es sg, unify n es = Ok sg -> solves sg es.
Proof.
  induction n as [|n IH]; intros es sg; [discriminate|].
  destruct es as [|(s,t) r]; [intros [= <-] ? ? []|].
  assert (ELIM : forall x u, elim n r x u = Ok sg -> solves sg ((TVar x, u)::r)).
  { unfold elim. intros x u E. destruct (occurs x u) eqn:O; [discriminate|].
    destruct (unify n (sub1_eqs x u r)) as [sg0| |] eqn:U; try discriminate. injection E as <-.
    apply solves_elim; auto. }
  destruct (unify_step s t r) as (K & ST & ->). destruct ST as [s|x u _|x u _|a b c d|s t _]; intros H.
  - apply allp_cons. split; [reflexivity|exact (IH _ _ H)].
  - exact (ELIM _ _ H).
  - apply ELIM, allp_cons in H. apply allp_cons. destruct H; auto.
  - apply IH, allp_cons in H. destruct H as (E1 & H). apply allp_cons in H. destruct H as (E2 & S).
    apply allp_cons. rewrite !app_seq_node, E1, E2. auto.
  - discriminate.
Qed.

Theorem unify_mgu : forall n es sg, unify n es = Ok sg ->
  forall th, unifies th es -> forall t, app th (app_seq sg t) = app th t.
Proof.
  induction n as [|n IH]; intros es sg; [discriminate|].
  destruct es as [|(s,t) r]; [intros [= <-]; reflexivity|].
  intros H th U. apply allp_cons in U. destruct U as (Est & Ur). revert H.
  assert (ELIM : forall x u, th x = app th u -> elim n r x u = Ok sg ->
             forall t0, app th (app_seq sg t0) = app th t0).
  { unfold elim. intros x u Exu E t0. destruct (occurs x u); [discriminate|].
    destruct (unify n (sub1_eqs x u r)) as [sg0| |] eqn:Un; try discriminate. injection E as <-.
    cbn. rewrite (IH _ _ Un th (unifies_sub1 _ _ _ _ Exu Ur)). apply app_sub1; exact Exu. }
  destruct (unify_step s t r) as (K & ST & ->). destruct ST as [s|x u _|x u _|a b c d|s t _]; intros H.
  - exact (IH _ _ H th Ur).
  - exact (ELIM _ _ Est H).
  - exact (ELIM _ _ (eq_sym Est) H).
  - apply (IH _ _ H th). injection Est as E1 E2. do 2 (apply allp_cons; split; [assumption|]). exact Ur.
  - discriminate.
Qed.

Theorem unify_complete : forall n es, unify n es = Clash -> forall th, ~ unifies th es.
Proof.
  induction n as [|n IH]; intros es; [discriminate|].
  destruct es as [|(s,t) r]; [discriminate|].
  intros H th U. apply allp_cons in U. destruct U as (Est & Ur). revert H.
  assert (ELIM : forall x u, th x = app th u -> u <> TVar x -> elim n r x u = Clash -> False).
  { unfold elim. intros x u Exu N E. destruct (occurs x u) eqn:O.
    - exact (occurs_no_unifier th x u O N Exu).
    - destruct (unify n (sub1_eqs x u r)) as [sg0| |] eqn:Un; try discriminate.
      exact (IH _ Un th (unifies_sub1 _ _ _ _ Exu Ur)). }
  destruct (unify_step s t r) as (K & ST & ->). destruct ST as [s|x u N|x u N|a b c d|s t NU]; intros H.
  - exact (IH _ H th Ur).
  - exact (ELIM x u Est N H).
  - exact (ELIM x u (eq_sym Est) N H).
  - apply (IH _ H th). injection Est as E1 E2. do 2 (apply allp_cons; split; [assumption|]). exact Ur.
  - exact (NU th Est).
Qed.

Lemma unify_mono : forall n es, unify n es <> Fuel -> forall m, n <= m -> unify m es = unify n es.
Proof.
  induction n as [|n IH]; intros es H m L; [cbn in H; congruence|].
  destruct m as [|m]; [lia|]. assert (Lm : n <= m) by lia.
  destruct es as [|(s,t) r]; [reflexivity|]. revert H.
  assert (ELIM : forall x u, elim n r x u <> Fuel -> elim m r x u = elim n r x u).
  { unfold elim. intros x u N. destruct (occurs x u); auto.
    rewrite (IH (sub1_eqs x u r)); auto. intros E; rewrite E in N; congruence. }
  destruct (unify_step s t r) as (K & ST & EQ). rewrite !EQ. destruct ST; auto.
Qed.

Lemma occurs_sub1 x u t y : occurs y (sub1 x u t) = true -> (occurs y t = true /\ y <> x) \/ occurs y u = true.
Proof. induction t as [z|a|l IHl r IHr]; cbn; intros H; try discriminate.
  - destruct (Nat.eqb x z) eqn:E; [right; exact H|]. left. cbn in H. split; [exact H|].
    apply Nat.eqb_eq in H; subst. intros ->. rewrite Nat.eqb_refl in E; discriminate.
  - apply orb_true_iff in H. destruct H as [H|H]; [destruct (IHl H) as [[A B]|A]|destruct (IHr H) as [[A B]|A]];
      auto; left; split; auto; apply orb_true_iff; auto. Qed.

Lemma evars_sub1 V x u r : vars_in V u -> occurs x u = false -> evars_in V r ->
  evars_in (remove Nat.eq_dec x V) (sub1_eqs x u r).
Proof. intros Vu O Vr s t I. unfold sub1_eqs in I. apply in_map_iff in I. destruct I as ((s0,t0) & E & I).
  inversion E; subst. destruct (Vr _ _ I) as (Vs & Vt).
  assert (K : forall w, vars_in V w -> vars_in (remove Nat.eq_dec x V) (sub1 x u w)).
  { intros w Vw y Oy. destruct (occurs_sub1 _ _ _ _ Oy) as [[A B]|A].
    - apply in_in_remove; auto.
    - apply in_in_remove; [intros ->; congruence|apply Vu; exact A]. }
  split; apply K; assumption. Qed.

Theorem unify_terminates : forall k V, length V = k -> forall sz es, esize es = sz -> evars_in V es ->
  exists n, unify n es <> Fuel.
Proof.
  induction k as [k IHk] using lt_wf_ind. intros V LV.
  induction sz as [sz IHsz] using lt_wf_ind. intros es Es Ve. subst sz.
  destruct es as [|(s,t) r]; [exists 1; discriminate|].
  apply allp_cons in Ve. destruct Ve as ((Vs & Vt) & Vr).
  assert (ELIM : forall x u, vars_in V (TVar x) -> vars_in V u -> exists n, elim n r x u <> Fuel).
  { unfold elim. intros x u Vx Vu. destruct (occurs x u) eqn:O; [exists 0; discriminate|].
    destruct (IHk (length (remove Nat.eq_dec x V))) with (V:=remove Nat.eq_dec x V)
       (sz:=esize (sub1_eqs x u r)) (es:=sub1_eqs x u r) as (n & Hn); auto.
    - subst k. apply remove_length_lt, Vx. cbn. apply Nat.eqb_refl.
    - apply evars_sub1; auto.
    - exists n. destruct (unify n (sub1_eqs x u r)); congruence. }
  destruct (unify_step s t r) as (K & ST & EQ).
  enough (exists n, K n <> Fuel) as (n & Hn) by (exists (S n); rewrite EQ; exact Hn).
  destruct ST as [s|x u _|x u _|a b c d|s t _].
  - apply (IHsz (esize r)); auto. destruct s; cbn; lia.
  - apply ELIM; assumption.
  - apply ELIM; assumption.
  - apply (IHsz (esize ((a,c)::(b,d)::r))); [cbn; lia|reflexivity|].
    apply vars_in_node in Vs, Vt. do 2 (apply allp_cons; split; [tauto|]). exact Vr.
  - exists 0. discriminate.
Qed.

Fixpoint tvars (t:ty) : list nat :=
  match t with TVar x => [x] | TAtom _ => [] | TNode l r => tvars l ++ tvars r end.
Fixpoint eqs_vars (es:list eqn) : list nat :=
  match es with [] => [] | (s,t)::r => tvars s ++ tvars t ++ eqs_vars r end.

Lemma occurs_tvars x t : occurs x t = true -> In x (tvars t).
Proof. induction t as [y|a|l IHl r IHr]; cbn; intros H; try discriminate.
  - apply Nat.eqb_eq in H; auto.
  - apply in_or_app. apply orb_true_iff in H. destruct H; auto. Qed.

Lemma tvars_occurs x t : In x (tvars t) -> occurs x t = true.
Proof. induction t as [y|a|l IHl r IHr]; cbn; intros H; try contradiction.
  - destruct H as [->|[]]. apply Nat.eqb_refl.
  - apply orb_true_iff. apply in_app_or in H. destruct H; auto. Qed.

Lemma evars_in_eqs_vars es : evars_in (eqs_vars es) es.
Proof. induction es as [|(s,t) r IH]; intros a b I; [destruct I|].
  destruct I as [E|I].
  - inversion E; subst. split; intros x O; apply occurs_tvars in O; cbn;
      apply in_or_app; [left; exact O|right; apply in_or_app; left; exact O].
  - destruct (IH _ _ I) as (A & B). split; intros x O; cbn; apply in_or_app; right; apply in_or_app; right; auto. Qed.

Theorem unify_fuel_sufficient : forall es, exists n, forall m, n <= m -> unify m es <> Fuel.
Proof.
  intros es. destruct (unify_terminates _ (eqs_vars es) eq_refl _ es eq_refl (evars_in_eqs_vars es)) as (n & Hn).
  exists n. intros m L. rewrite (unify_mono n es Hn m L). exact Hn.
Qed.
