(** C01 — the vocabulary of the simulation proof ([sim_res]), the lowering rules of single constructs, and
    lemmas about the relations of Core/SimDefs.v *)
From Coq Require Import List ZArith String Ascii Bool Lia.
From FoVerif Require Import Core.Common Core.CommonProofs Core.Lib Core.MiniFo Core.MiniGo Core.Compile
  Core.GoRules Core.SimDefs.
Import ListNotations.
Open Scope list_scope.

Definition sim_res {A B} (R:A -> B -> Prop) (r:res A) (G:B -> trace -> Prop) : Prop :=
  forall a t, r = Done a t -> exists b, G b t /\ R a b.

Lemma sim_ret {A B} (R:A -> B -> Prop) (G:B -> trace -> Prop) a b t : G b t -> R a b -> sim_res R (Done a t) G.
Proof. intros HG HR a' t' [= <- <-]; eauto. Qed.
Lemma sim_stuck {A B} (R:A -> B -> Prop) G w : sim_res R (Stuck w) G.
Proof. intros a t [=]. Qed.
Lemma sim_fuel {A B} (R:A -> B -> Prop) G : sim_res R Fuel G.
Proof. intros a t [=]. Qed.
Lemma sim_of_opt {A B} (R:A -> B -> Prop) G w o t :
  (forall a, o = Some a -> exists b, G b t /\ R a b) -> sim_res R (of_opt w o t) G.
Proof. intros H a t' E. destruct o; [injection E as <- <-; auto|discriminate E]. Qed.
Lemma sim_mono {A B} {R:A -> B -> Prop} {r} {G G':B -> trace -> Prop} :
  sim_res R r G -> (forall b t, G b t -> G' b t) -> sim_res R r G'.
Proof. intros H M a t Ha. destruct (H a t Ha) as (b & HG & HR). eauto. Qed.
Lemma sim_bind {A A' B B'} (R:A -> B -> Prop) (R':A' -> B' -> Prop) r k G G' :
  sim_res R r G -> (forall a b t, R a b -> G b t -> sim_res R' (k a t) G') -> sim_res R' (rbind r k) G'.
Proof.
  intros H K a' t'. destruct r as [a t| |]; [|intros [=]..].
  destruct (H a t eq_refl) as (b & HG & HR). exact (K a b t HR HG a' t').
Qed.

Lemma wfe_inv strict ok e : wfe strict ok e ->
  match e with
  | EInt _ | EStr _ | EBool _ | EUnit => True
  | EVar x => reserved x = false
  | EBin _ a b | EEq _ a b => wfe strict ok a /\ wfe strict ok b
  | ENot a | EField a _ => wfe strict ok a
  | EIf c bt bf => wfe strict ok c /\ wfb strict ok bt /\ wfb strict ok bf /\ block_unit bt = block_unit bf
  | EIfOnly c bt => wfe strict ok c /\ wfb strict ok bt
  | ELam ps b => Forall (fun p => reserved p = false) ps /\ wfb strict ok b
  | ECall f O _ args => reserved f = false /\ Forall (wfe strict ok) args
  | ECall f (S _) _ args =>
      reserved f = false /\ Forall (wfe strict ok) args /\ (strict = true -> Forall pure args)
  | EExt fn args => src_fn fn = true /\ Forall (wfe strict ok) args
  | EPipeVar a f _ => wfe strict ok a /\ reserved f = false
  | EPipeCall a f args _ => wfe strict ok a /\ reserved f = false /\ Forall (wfe strict ok) args
  | EPipeExt a fn args _ => wfe strict ok a /\ src_fn fn = true /\ Forall (wfe strict ok) args
  | ETuple es => Forall (wfe strict ok) es /\ two_or_three (List.length es)
  | ERecord _ decl fields es => Forall (wfe strict ok) es /\ fields_ok fields decl
  | ECtor u c None => ok u c false
  | ECtor u c (Some a) => ok u c true /\ wfe strict ok a
  | EMatchU a _ arms def =>
      wfe strict ok a /\
      Forall (fun arm : string * option var * block =>
                match snd (fst arm) with Some x => reserved x = false | None => True end /\
                wfb strict ok (snd arm)) arms /\
      (forall b, def = Some b -> wfb strict ok b)
  | EMatchS a arms bx last =>
      wfe strict ok a /\ Forall (fun arm : string * block => wfb strict ok (snd arm)) arms /\
      match bx with Some x => reserved x = false | None => True end /\ wfb strict ok last
  | ESlice es => Forall (wfe strict ok) es
  | EInterp parts =>
      Forall (fun p : string + var => match p with inr x => reserved x = false | inl _ => True end) parts
  | EBlock b => wfb strict ok b
  end.
Proof. destruct 1; auto. Qed.

Lemma pure_inv e : pure e ->
  match e with
  | EInt _ | EStr _ | EBool _ | EVar _ | ELam _ _ | ECall _ (S _) _ _ | ECtor _ _ None => True
  | EBin _ a b | EEq _ a b => pure a /\ pure b
  | ENot a | EField a _ | ECtor _ _ (Some a) => pure a
  | ETuple es | ERecord _ _ _ es | ESlice es => Forall pure es
  | _ => False
  end.
Proof. destruct 1; auto. Qed.

Section Lemmas.
Variable d : dialect.
Variable ctor_ok : string -> string -> bool -> Prop.
Notation compile := (Compile.compile d).
Notation compile_block := (Compile.compile_block d).
Notation compile_list := (Compile.compile_list d).
Notation nv := (Compile.nv d).

Variable sfuns : list (var * (list var * block)).
Variable gfuncs : list (var * (list var * list gstmt)).
Variable gvars : list (var * gexpr).

Notation vrel := (vrel d ctor_ok gfuncs).
Notation erel := (erel d ctor_ok gfuncs).
Notation peval := (peval d ctor_ok gfuncs).
Notation pevals := (pevals d ctor_ok gfuncs).
Notation Geval := (Geval gfuncs gvars).
Notation Gevals := (Gevals gfuncs gvars).
Notation Gapply := (Gapply gfuncs gvars).
Notation glookup := (glookup gfuncs).

Hypothesis Hfuns : funs_lowered d ctor_ok sfuns gfuncs.
Hypothesis Hctor1 : ctor1_lowered ctor_ok gfuncs.
Hypothesis Hctor0 : ctor0_lowered ctor_ok gfuncs gvars.

Lemma equiv_refl g : equiv g g.
Proof. intros x _; reflexivity. Qed.
Lemma equiv_trans a b c : equiv a b -> equiv b c -> equiv a c.
Proof. intros H1 H2 x R. exact (eq_trans (H2 x R) (H1 x R)). Qed.
Lemma equiv_cons_tmp g y (v:gval) : is_tmp y = true -> equiv g ((y, v) :: g).
Proof. intros T x R. apply lookup_cons_neq. intros ->. rewrite T in R. discriminate R. Qed.

Lemma bind_rnames_equiv k i (vs:list gval) env env' :
  bind (rnames k i) vs env = Some env' -> equiv env env'.
Proof.
  intros B x R. apply (bind_lookup_notin _ _ _ _ _ B). intros H; apply rnames_tmp in H; congruence.
Qed.

Lemma glookup_equiv g g' x : equiv g g' -> is_tmp x = false -> glookup x g' = glookup x g.
Proof. intros Q R; unfold GoRules.glookup; rewrite (Q x R); reflexivity. Qed.

Lemma erel_nil : erel [] [].
Proof. repeat split; intros; cbn in *; try discriminate; reflexivity. Qed.

Lemma erel_equiv senv g g' : erel senv g -> equiv g g' -> erel senv g'.
Proof.
  intros (E1 & E2 & E3) Q. repeat split.
  - intros x v R L. destruct (orb_false_elim _ _ R) as [T _].
    destruct (E1 x v R L) as (gv & L' & V); exists gv; split; [rewrite (Q x T); exact L' | exact V].
  - intros x R L. destruct (orb_false_elim _ _ R) as [T _]. rewrite (Q x T); auto.
  - intros x C. rewrite (Q x (ctor_like_not_tmp _ C)); auto.
Qed.

Lemma erel_tmp senv g y v : erel senv g -> is_tmp y = true -> erel senv ((y, v) :: g).
Proof. intros E T. eapply erel_equiv; [exact E|apply equiv_cons_tmp; exact T]. Qed.

Lemma erel_bind1 senv g x v gv :
  reserved x = false -> vrel v gv -> erel senv g -> erel ((x, v) :: senv) ((x, gv) :: g).
Proof.
  intros R V (E1 & E2 & E3). repeat split.
  - intros y w Ry L. cbn in *. destruct (String.eqb y x); [inversion L; subst; eauto | apply E1; assumption].
  - intros y Ry L. cbn in *. destruct (String.eqb y x); [discriminate | apply E2; assumption].
  - intros y C. cbn. destruct (String.eqb y x) eqn:Eq.
    + apply String.eqb_eq in Eq; subst. destruct (orb_false_elim _ _ R); congruence.
    + apply E3; assumption.
Qed.

Lemma bind_erel ps : forall vs gvs senv genv senv',
  Forall (fun p => reserved p = false) ps ->
  erel senv genv -> Forall2 vrel vs gvs ->
  bind ps vs senv = Some senv' -> exists genv', bind ps gvs genv = Some genv' /\ erel senv' genv'.
Proof.
  induction ps as [|p ps IH]; intros vs gvs senv genv senv' F E V B1;
    destruct V; cbn in *; try discriminate.
  - inversion B1; subst; eauto.
  - inversion F; subst. eapply IH; [eassumption| |eassumption|exact B1].
    apply erel_bind1; assumption.
Qed.

Lemma var_sim senv genv x v :
  erel senv genv -> reserved x = false -> lookup_var sfuns x senv = Some v ->
  exists gv, glookup x genv = Some gv /\ vrel v gv.
Proof.
  intros (E1 & E2 & E3) R L. unfold lookup_var in L. unfold GoRules.glookup.
  destruct (lookup x senv) as [v0|] eqn:Ls.
  - inversion L; subst. destruct (E1 _ _ R Ls) as (gv & Lg & V). exists gv. rewrite Lg. auto.
  - rewrite (E2 _ R Ls).
    destruct (lookup x sfuns) as [[ps b]|] eqn:Lf; [|discriminate]. inversion L; subst.
    destruct (Hfuns _ _ _ Lf) as (k & Lg & Fp & Wb). rewrite Lg.
    eexists; split; [reflexivity|].
    constructor; auto; intros; cbn in *; try discriminate; reflexivity.
Qed.

Lemma bind_rnames_vars k : forall i (vs:list gval) env env' t,
  bind (rnames k i) vs env = Some env' -> Gevals env' (map GVar (rnames k i)) t vs t.
Proof.
  induction k as [|k IH]; intros i [|v vs] env env' t B; cbn in B; try discriminate.
  - apply Gs_nil.
  - cbn [rnames map]. eapply Gs_cons; [apply G_var | eapply IH; eauto].
    unfold GoRules.glookup. rewrite (bind_lookup_notin _ _ _ _ _ B).
    + rewrite lookup_cons_eq; reflexivity.
    + intros H; destruct (rnames_In _ _ _ H) as (j & Hj & E); apply rname_inj in E; lia.
Qed.

Lemma tuple_pure (gvs:list gval) n :
  List.length gvs = n -> two_or_three n ->
  lib_pure gops (tuple_fn n) gvs = Some (GVStruct (tuple_struct (List.length gvs)) (combine tuple_fields gvs)).
Proof.
  intros <- T.
  destruct gvs as [|a [|b [|c [|d0 gvs]]]]; cbn [List.length] in *; destruct T as [T|T]; try discriminate T;
    reflexivity.
Qed.

Lemma combine_fst {A B} : forall (l1:list A) (l2:list B), List.length l1 = List.length l2 -> map fst (combine l1 l2) = l1.
Proof. induction l1; intros [|b l2] L; cbn in *; try discriminate; auto. f_equal; auto. Qed.
Lemma combine_snd {A B} : forall (l1:list A) (l2:list B), List.length l1 = List.length l2 -> map snd (combine l1 l2) = l2.
Proof. induction l1; intros [|b l2] L; cbn in *; try discriminate; auto. f_equal; auto. Qed.
Lemma compile_list_length : forall es k, List.length (compile_list k es) = List.length es.
Proof. induction es; intros; cbn; auto. Qed.

Lemma pevals_length env : forall args k gws, pevals env k args gws -> List.length gws = List.length args.
Proof. induction args; intros k gws P; inversion P; subst; cbn; eauto. Qed.

Lemma Gs_close genv (ces:list gexpr) t (gs:list gval) t' :
  (forall rest rvs t2, Gevals genv rest t' rvs t2 -> Gevals genv (ces ++ rest) t (gs ++ rvs) t2) ->
  Gevals genv ces t gs t'.
Proof. intros G. specialize (G [] [] t' (Gs_nil _ _ _ _)). rewrite !app_nil_r in G. exact G. Qed.

Lemma C_eq env k neg a b t ga t1 gb t2 r :
  Geval env (compile k a) t ga t1 -> Geval env (compile (k + nv a) b) t1 gb t2 -> gval_eq ga gb = Some r ->
  Geval env (compile k (EEq neg a b)) t (GVBool (if neg then negb r else r)) t2.
Proof.
  intros Ga Gb Q. cbn [compile].
  eapply G_libcall; [eapply Gs_cons; [exact Ga|eapply Gs_cons; [exact Gb|apply Gs_nil]]|].
  apply Gl_pure; [destruct neg; reflexivity|]. destruct neg; cbn [lib_pure gops veq]; rewrite Q; reflexivity.
Qed.

Lemma C_not env k a t b t1 :
  Geval env (compile k a) t (GVBool b) t1 -> Geval env (compile k (ENot a)) t (GVBool (negb b)) t1.
Proof.
  intros Ga. cbn [compile]. eapply G_libcall; [eapply Gs_cons; [exact Ga|apply Gs_nil]|]. apply Gl_pure; reflexivity.
Qed.

Lemma C_tuple env k es t gvs t1 :
  Gevals env (compile_list k es) t gvs t1 -> List.length gvs = List.length es -> two_or_three (List.length es) ->
  Geval env (compile k (ETuple es)) t (GVStruct (tuple_struct (List.length gvs)) (combine tuple_fields gvs)) t1.
Proof.
  intros Gs L T.
  eapply G_libcall; [exact Gs|].
  apply Gl_pure; [destruct T as [T|T]; rewrite T; reflexivity|]. apply tuple_pure; [exact L|exact T].
Qed.

Lemma C_record env k n decl fs es t gvs t1 gfs :
  Gevals env (compile_list k es) t gvs t1 -> List.length fs = List.length es ->
  arrange decl (combine fs gvs) = Some gfs ->
  Geval env (compile k (ERecord n decl fs es)) t (GVStruct n gfs) t1.
Proof.
  intros Gs L A.
  change (compile k (ERecord n decl fs es)) with (GStructLit n decl (combine fs (compile_list k es))).
  rewrite <- (compile_list_length es k) in L.
  eapply G_struct; [rewrite (combine_snd _ _ L); exact Gs|rewrite (combine_fst _ _ L); exact A].
Qed.

Lemma C_ctor1 env k u c a t ga t1 :
  ctor_ok u c true -> lookup (ctor_name u c) env = None -> Geval env (compile k a) t ga t1 ->
  Geval env (compile k (ECtor u c (Some a))) t (GVStruct (case_struct u c) [("Value"%string, ga)]) t1.
Proof.
  intros Hc Le Ga. cbn [compile]. eapply G_call.
  - apply G_var. unfold GoRules.glookup. rewrite Le, (Hctor1 _ _ Hc). reflexivity.
  - eapply Gs_cons; [exact Ga|apply Gs_nil].
  - eapply (Ga_clo _ _ _ _ _ _ _ _ (Some _)); [reflexivity|]. apply Gx_return.
    eapply G_struct; [eapply Gs_cons; [apply G_var; reflexivity|apply Gs_nil]|reflexivity].
Qed.

Lemma ret_stmt_apply genv ps gvs env' u call t gv t2 :
  bind ps gvs genv = Some env' -> Geval env' call t gv t2 ->
  Gapply (GVClo genv ps [ret_stmt u call]) gvs t (if u then GVUnit else gv) t2.
Proof.
  intros B Gc. destruct u; cbn [ret_stmt].
  - eapply (Ga_clo _ _ _ _ _ _ _ _ None _ B). eapply Gx_expr; [exact Gc|apply Gx_nil].
  - eapply (Ga_clo _ _ _ _ _ _ _ _ (Some gv) _ B). apply Gx_return; exact Gc.
Qed.

Lemma peval_Geval_mut env :
  (forall k a gv, peval env k a gv -> forall t, Geval env (compile k a) t gv t) /\
  (forall k es gvs, pevals env k es gvs -> forall rest t rvs t',
     Gevals env rest t rvs t' -> Gevals env (compile_list k es ++ rest) t (gvs ++ rvs) t').
Proof.
  apply (peval_mutind d ctor_ok gfuncs env
       (fun k a gv => forall t, Geval env (compile k a) t gv t)
       (fun k es gvs => forall rest t rvs t', Gevals env rest t rvs t' ->
                          Gevals env (compile_list k es ++ rest) t (gvs ++ rvs) t')); intros.
  - apply G_int.
  - apply G_str.
  - apply G_bool.
  - apply G_var; assumption.
  - (* lambda *) apply G_func.
  - (* partial application *) apply G_func.
  - eapply G_arith; eauto.
  - eapply G_and_false; eauto.
  - eapply G_and_true; eauto.
  - eapply G_or_true; eauto.
  - eapply G_or_false; eauto.
  - eapply C_eq; eauto.
  - apply C_not; auto.
  - apply C_tuple; [apply Gs_close; auto|eapply pevals_length; eassumption|assumption].
  - eapply C_record; [apply Gs_close; auto|assumption|eassumption].
  - eapply G_sel; eauto.
  - (* constructor without payload: a package-level variable *)
    match goal with Hc : ctor_ok _ _ false |- _ => destruct (Hctor0 _ _ Hc) as (L1 & L2) end.
    eapply G_var_pkgvar; [eassumption|exact L1|exact L2|]. eapply G_struct; [apply Gs_nil|reflexivity].
  - apply C_ctor1; auto.
  - apply G_slice, Gs_close; auto.
  - (* [] *) assumption.
  - cbn [compile_list app]. eapply Gs_cons; auto.
Qed.

Lemma lookup_rel f : forall fs gfs v,
  Forall2 (fun a b => fst a = fst b /\ vrel (snd a) (snd b)) fs gfs ->
  lookup f fs = Some v -> exists gv, lookup f gfs = Some gv /\ vrel v gv.
Proof.
  induction fs as [|[g w] fs IH]; intros gfs v F L; cbn in L; [discriminate|].
  inversion F as [|? [g' gw] ? ? [Eq Vw] F']; subst. cbn in Eq, Vw; subst g'. cbn.
  destruct (String.eqb f g); [inversion L; subst; eauto|eauto].
Qed.

Lemma arrange_rel decl : forall a ga fs,
  Forall2 (fun a b => fst a = fst b /\ vrel (snd a) (snd b)) a ga ->
  arrange decl a = Some fs ->
  exists gfs, arrange decl ga = Some gfs /\ Forall2 (fun a b => fst a = fst b /\ vrel (snd a) (snd b)) fs gfs.
Proof.
  unfold arrange. induction decl as [|f decl IH]; intros a ga fs F H; cbn in H |- *.
  - inversion H; subst. exists []; split; [reflexivity|constructor].
  - destruct (lookup f a) as [v|] eqn:L; cbn in H; [|discriminate].
    destruct (all_some (map (fun f0 => option_map (pair f0) (lookup f0 a)) decl)) as [r|] eqn:R; cbn in H; [|discriminate].
    inversion H; subst.
    destruct (lookup_rel _ _ _ _ F L) as (gv & Lg & V). rewrite Lg. cbn.
    destruct (IH _ _ _ F R) as (gr & Rg & Fr). rewrite Rg. cbn.
    eexists; split; [reflexivity|]. constructor; [cbn; auto|exact Fr].
Qed.

Lemma check_unit_inv u v t v' t' :
  check_unit u v t = Done v' t' -> v' = v /\ t' = t /\ (u = true -> v = VUnit).
Proof.
  unfold check_unit; destruct u; [destruct v|]; intros [= <- <-]; repeat split; discriminate.
Qed.

Lemma sim_check_unit {B} (R:val -> B -> Prop) G u v t :
  ((u = true -> v = VUnit) -> exists b, G b t /\ R v b) -> sim_res R (check_unit u v t) G.
Proof. intros H v' t' C. apply check_unit_inv in C. destruct C as (-> & -> & U). exact (H U). Qed.

Lemma eval_block_unit n : forall env b t v t',
  eval_block sfuns n env b t = Done v t' -> block_unit b = true -> v = VUnit.
Proof.
  induction n as [|n IH]; intros env b t v t' H U; [discriminate|].
  destruct b; cbn [eval evals eval_block apply] in H; cbn in U.
  - destruct (eval sfuns n env e t) as [v1 t1| |]; cbn [rbind] in H; try discriminate. eauto.
  - destruct (eval sfuns n env e t) as [v1 t1| |]; cbn [rbind] in H; try discriminate.
    destruct v1; try discriminate. destruct (bind xs vs env); try discriminate. eauto.
  - destruct (eval sfuns n env e t) as [v1 t1| |]; cbn [rbind] in H; try discriminate. eauto.
  - destruct (eval sfuns n env e t) as [v1 t1| |]; cbn [rbind] in H; try discriminate.
    apply check_unit_inv in H. destruct H as (-> & _ & Hu). exact (Hu U).
Qed.

Lemma vrel_asInt v gv : vrel v gv -> asInt gops gv = asInt sops v.
Proof. intros V; inversion V; reflexivity. Qed.
Lemma vrel_asStr v gv : vrel v gv -> asStr gops gv = asStr sops v.
Proof. intros V; inversion V; reflexivity. Qed.
Lemma vrel_asBool v gv : vrel v gv -> asBool gops gv = asBool sops v.
Proof. intros V; inversion V; reflexivity. Qed.

Lemma vrel_int_inv z gv : vrel (VInt z) gv -> gv = GVInt z.
Proof. intros V; inversion V; reflexivity. Qed.

Lemma arith_sim op va vb ga gb v :
  vrel va ga -> vrel vb gb -> arith sops op va vb = Some v ->
  exists gv, arith gops op ga gb = Some gv /\ vrel v gv.
Proof.
  (* [arith] sees its operands only through [asInt] / [asStr] and builds a literal *)
  intros Va Vb. unfold arith. cbn [mkInt mkStr mkBool sops gops].
  rewrite (vrel_asInt _ _ Va), (vrel_asInt _ _ Vb), (vrel_asStr _ _ Va), (vrel_asStr _ _ Vb).
  generalize (asInt sops va) (asInt sops vb) (asStr sops va) (asStr sops vb); intros x y p q.
  destruct op; try (intros [=]; fail);
    try (destruct x as [x|], y as [y|]; try (intros [=]; fail);
         intros [= <-]; eexists; split; [reflexivity|constructor]; fail).
  - (* / *)
    destruct x as [x|], y as [y|]; try (intros [=]; fail). destruct (Z.eqb y 0); [intros [=]|].
    intros [= <-]; eexists; split; [reflexivity|constructor].
  - destruct p, q; try (intros [=]; fail). intros [= <-]; eexists; split; [reflexivity|constructor].
Qed.

End Lemmas.
