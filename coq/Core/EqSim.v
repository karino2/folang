(** C01 — structural equality ([=] / frt.OpEqual) agrees on related first-order values *)
From Coq Require Import List ZArith String Ascii Bool Lia.
From FoVerif Require Import Core.Common Core.CommonProofs Core.MiniFo Core.MiniGo Core.Compile Core.SimDefs.
Import ListNotations.
Open Scope list_scope.

(** induction principle for values with nested lists *)
Section val_ind'.
Variable P : val -> Prop.
Hypothesis Hint : forall z, P (VInt z).
Hypothesis Hstr : forall s, P (VStr s).
Hypothesis Hbool : forall b, P (VBool b).
Hypothesis Hunit : P VUnit.
Hypothesis Htuple : forall vs, Forall P vs -> P (VTuple vs).
Hypothesis Hrec : forall n fs, Forall (fun p => P (snd p)) fs -> P (VRec n fs).
Hypothesis Hunion0 : forall u c, P (VUnion u c None).
Hypothesis Hunion1 : forall u c v, P v -> P (VUnion u c (Some v)).
Hypothesis Hslice : forall vs, Forall P vs -> P (VSlice vs).
Hypothesis Hclo : forall env ps b, P (VClo env ps b).
Hypothesis Hpap : forall f args m u, P (VPap f args m u).

Fixpoint val_ind' (v:val) : P v :=
  match v with
  | VInt z => Hint z
  | VStr s => Hstr s
  | VBool b => Hbool b
  | VUnit => Hunit
  | VTuple vs =>
      Htuple vs ((fix go (l:list val) : Forall P l :=
                    match l with [] => Forall_nil _ | x :: r => Forall_cons _ (val_ind' x) (go r) end) vs)
  | VRec n fs =>
      Hrec n fs ((fix go (l:list (string*val)) : Forall (fun p => P (snd p)) l :=
                    match l with [] => Forall_nil _ | x :: r => Forall_cons _ (val_ind' (snd x)) (go r) end) fs)
  | VUnion u c None => Hunion0 u c
  | VUnion u c (Some v) => Hunion1 u c v (val_ind' v)
  | VSlice vs =>
      Hslice vs ((fix go (l:list val) : Forall P l :=
                    match l with [] => Forall_nil _ | x :: r => Forall_cons _ (val_ind' x) (go r) end) vs)
  | VClo env ps b => Hclo env ps b
  | VPap f args m u => Hpap f args m u
  end.
End val_ind'.

(** The element-wise comparisons local to [val_eq] and [gval_eq], at top level and as functions of the
    comparison of elements. *)
Definition eq_step (o rest:option bool) : option bool :=
  match o with
  | Some true => rest
  | Some false => match rest with Some _ => Some false | None => None end
  | None => None
  end.

Section ListEq.
Context {A:Type} (eqA:A -> A -> option bool).
Fixpoint list_eqo (xs ys:list A) {struct xs} : option bool :=
  match xs, ys with
  | [], [] => Some true
  | x :: xs', y :: ys' => eq_step (eqA x y) (list_eqo xs' ys')
  | _, _ => Some false
  end.
Fixpoint fields_eqo (xs ys:list (string*A)) {struct xs} : option bool :=
  match xs, ys with
  | [], [] => Some true
  | (f, x) :: xs', (g, y) :: ys' => if String.eqb f g then eq_step (eqA x y) (fields_eqo xs' ys') else None
  | _, _ => None
  end.

(* a tuple is a struct with the fields [tuple_fields] *)
Lemma fields_eqo_combine (F:list string) : forall xs ys,
  List.length xs = List.length ys -> List.length xs <= List.length F ->
  fields_eqo (combine F xs) (combine F ys) = list_eqo xs ys.
Proof.
  induction F as [|f F IH]; intros [|x xs] [|y ys] L LF; cbn in *; try discriminate L; try lia; try reflexivity.
  rewrite String.eqb_refl, IH by lia. reflexivity.
Qed.
End ListEq.

Lemma val_eq_tuple xs ys :
  val_eq (VTuple xs) (VTuple ys) = if Nat.eqb (List.length xs) (List.length ys) then list_eqo val_eq xs ys else None.
Proof. reflexivity. Qed.
Lemma val_eq_slice xs ys : val_eq (VSlice xs) (VSlice ys) = list_eqo val_eq xs ys.
Proof. reflexivity. Qed.
Lemma val_eq_rec n fs m gs : val_eq (VRec n fs) (VRec m gs) = if String.eqb n m then fields_eqo val_eq fs gs else None.
Proof. reflexivity. Qed.
Lemma gval_eq_struct n fs m gs :
  gval_eq (GVStruct n fs) (GVStruct m gs) = if String.eqb n m then fields_eqo gval_eq fs gs else Some false.
Proof. reflexivity. Qed.
Lemma gval_eq_slice xs ys : gval_eq (GVSlice xs) (GVSlice ys) = list_eqo gval_eq xs ys.
Proof. reflexivity. Qed.

Section Imp.
Context {A B:Type} (R:A -> B -> Prop) (eqA:A -> A -> option bool) (eqB:B -> B -> option bool).

Definition eq_imp (x:A) : Prop :=
  forall y gx gy r, R x gx -> R y gy -> eqA x y = Some r -> eqB gx gy = Some r.

Lemma eq_step_imp o go rest grest :
  (forall r, o = Some r -> go = Some r) -> (forall r, rest = Some r -> grest = Some r) ->
  forall r, eq_step o rest = Some r -> eq_step go grest = Some r.
Proof.
  intros Ho Hr r. destruct o as [[|]|]; try discriminate; rewrite (Ho _ eq_refl); cbn; [apply Hr|].
  destruct rest; [rewrite (Hr _ eq_refl); exact id|discriminate].
Qed.

Lemma list_eqo_imp xs gxs : Forall2 R xs gxs -> Forall eq_imp xs -> forall ys gys,
  Forall2 R ys gys -> forall r, list_eqo eqA xs ys = Some r -> list_eqo eqB gxs gys = Some r.
Proof.
  induction 1 as [|x gx xs gxs rx _ IH]; intros F ? ? [|y gy ys gys ry Vy]; try exact (fun r H => H).
  apply eq_step_imp; [exact (fun r => Forall_inv F y gx gy r rx ry)|exact (IH (Forall_inv_tail F) ys gys Vy)].
Qed.

Notation Rf := (fun (a:string * A) (b:string * B) => fst a = fst b /\ R (snd a) (snd b)).
Lemma fields_eqo_imp fs gfs : Forall2 Rf fs gfs -> Forall (fun p => eq_imp (snd p)) fs -> forall gs ggs,
  Forall2 Rf gs ggs -> forall r, fields_eqo eqA fs gs = Some r -> fields_eqo eqB gfs ggs = Some r.
Proof.
  induction 1 as [|[f x] [f' gx] fs gfs [E rx] _ IH]; intros F ? ? [|[g y] [g' gy] gs ggs [E' ry] Vy];
    try exact (fun r H => H).
  cbn in E, E', rx, ry; subst f' g'. cbn [fields_eqo]. destruct (String.eqb f g); [|exact (fun r H => H)].
  apply eq_step_imp; [exact (fun r => Forall_inv F y gx gy r rx ry)|exact (IH (Forall_inv_tail F) gs ggs Vy)].
Qed.
End Imp.

Section EqSim.
Variable d : dialect.
Variable ctor_ok : string -> string -> bool -> Prop.

Variable gfuncs : list (var * (list var * list gstmt)).
Notation vrel := (vrel d ctor_ok gfuncs).

Lemma vrel_inv v gv : vrel v gv ->
  match v with
  | VInt z => gv = GVInt z
  | VStr s => gv = GVStr s
  | VBool b => gv = GVBool b
  | VUnit => gv = GVUnit
  | VTuple vs => exists gvs, gv = GVStruct (tuple_struct (List.length gvs)) (combine tuple_fields gvs) /\
                             Forall2 vrel vs gvs /\ two_or_three (List.length vs)
  | VRec n fs => exists gfs, gv = GVStruct n gfs /\ Forall2 (fun a b => fst a = fst b /\ vrel (snd a) (snd b)) fs gfs
  | VUnion u c None => gv = GVStruct (case_struct u c) []
  | VUnion u c (Some w) => exists gw, gv = GVStruct (case_struct u c) [("Value"%string, gw)] /\ vrel w gw
  | VSlice vs => exists gvs, gv = GVSlice gvs /\ Forall2 vrel vs gvs
  | _ => True
  end.
Proof. destruct 1; eauto. Qed.

Lemma veq_sim : forall va, eq_imp vrel val_eq gval_eq va.
Proof.
  induction va using val_ind'; intros vb ga gb r Va Vb Hq; destruct vb as [| | | |ys|n' gs|u' c' p'|ys| |];
    try discriminate Hq;
    apply vrel_inv in Va; apply vrel_inv in Vb.
  1-4: subst; exact Hq.
  - (* tuples *)
    destruct Va as (gxs & -> & Vxs & Tx), Vb as (gys & -> & Vys & _).
    rewrite val_eq_tuple in Hq.
    destruct (Nat.eqb (List.length vs) (List.length ys)) eqn:L; [|discriminate]. apply Nat.eqb_eq in L.
    rewrite (Forall2_length' Vxs), (Forall2_length' Vys) in L.
    rewrite gval_eq_struct, L, String.eqb_refl, fields_eqo_combine; [exact (list_eqo_imp _ _ _ _ _ Vxs H _ _ Vys r Hq)|exact L|].
    rewrite <- (Forall2_length' Vxs). destruct Tx as [Tx|Tx]; rewrite Tx; cbn; lia.
  - (* records *)
    destruct Va as (gfs & -> & Vfs), Vb as (ggs & -> & Vgs).
    rewrite val_eq_rec in Hq. rewrite gval_eq_struct. destruct (String.eqb n n'); [|discriminate].
    exact (fields_eqo_imp _ _ _ _ _ Vfs H _ _ Vgs r Hq).
  - (* union, no payload *)
    cbn in Hq. destruct (String.eqb u u') eqn:Eu; [|discriminate]. apply String.eqb_eq in Eu; subst u'.
    subst ga. destruct p' as [w|]; [destruct Vb as (gw & -> & _)|subst gb];
      rewrite gval_eq_struct, case_struct_eqb; destruct (String.eqb c c'); exact Hq.
  - (* union, payload *)
    cbn in Hq. destruct (String.eqb u u') eqn:Eu; [|discriminate]. apply String.eqb_eq in Eu; subst u'.
    destruct Va as (gv & -> & Vv). destruct p' as [w|]; [destruct Vb as (gw & -> & Vw)|subst gb];
      rewrite gval_eq_struct, case_struct_eqb; destruct (String.eqb c c'); try exact Hq.
    cbn. rewrite (IHva _ _ _ _ Vv Vw Hq). destruct r; reflexivity.
  - (* slices *)
    destruct Va as (gxs & -> & Vxs), Vb as (gys & -> & Vys).
    rewrite val_eq_slice in Hq. rewrite gval_eq_slice. exact (list_eqo_imp _ _ _ _ _ Vxs H _ _ Vys r Hq).
Qed.

End EqSim.
