(** C10 — proofs about the model of frt.OpEqual / OpNotEqual (Equality.v). *)
From Coq Require Import List Ascii ZArith Bool Lia.
From FoVerif Require Import Pkg.BufProofs Core.Equality.
Import ListNotations.

Lemma byeq_eq : forall a b, byeq a b = true <-> a = b.
Proof. apply (list_eqb_eq Ascii.eqb); [apply Ascii.eqb_eq|intros [|] [|]; reflexivity]. Qed.

Lemma names_eq_eq : forall a b, names_eq a b = true <-> a = b.
Proof. apply (list_eqb_eq byeq); [apply byeq_eq|intros [|] [|]; reflexivity]. Qed.

(** forget the representation: every slice becomes non-nil *)
Fixpoint erase (a : val) : val :=
  match a with
  | VTuple l => VTuple (erase_list l)
  | VRecord n f l => VRecord n f (erase_list l)
  | VUnion u c l => VUnion u c (erase_list l)
  | VSlice _ l => VSlice false (erase_list l)
  | _ => a
  end
with erase_list (l : vals) : vals :=
  match l with
  | VNil => VNil
  | VCons a r => VCons (erase a) (erase_list r)
  end.

Lemma struct_eq_erase :
  (forall a b, struct_eq a b = true <-> erase a = erase b) /\
  (forall l1 l2, struct_eq_list l1 l2 = true <-> erase_list l1 = erase_list l2).
Proof.
  (* in every case: different constructors are unequal on both sides; equal ones are compared
     by the tests of their arguments, each of which decides equality *)
  apply val_vals_ind;
    [intros z b|intros s b|intros x b|intros l IH b|intros n f l IH b|intros u c l IH b|intros n l IH b
    |intros b|intros a IHa r IHr b];
    destruct b; cbn; try (split; intro; discriminate);
    rewrite ?andb_true_iff, ?Z.eqb_eq, ?byeq_eq, ?names_eq_eq, ?Bool.eqb_true_iff;
    try rewrite IH; try rewrite IHa, IHr;
    (split; [intuition congruence|intro H; inversion H; auto]).
Qed.

Theorem struct_eq_iff_erase : forall a b, struct_eq a b = true <-> erase a = erase b.
Proof. exact (proj1 struct_eq_erase). Qed.

Theorem struct_eq_refl : forall a, struct_eq a a = true.
Proof. intro a. apply struct_eq_iff_erase. reflexivity. Qed.

Theorem struct_eq_sym : forall a b, struct_eq a b = struct_eq b a.
Proof. intros a b. apply eq_iff_eq_true. rewrite !struct_eq_iff_erase. split; congruence. Qed.

Theorem struct_eq_trans : forall a b c,
  struct_eq a b = true -> struct_eq b c = true -> struct_eq a c = true.
Proof. intros a b c. rewrite !struct_eq_iff_erase. congruence. Qed.

Lemma struct_eq_list_length : forall l1 l2, vlen l1 <> vlen l2 -> struct_eq_list l1 l2 = false.
Proof.
  induction l1 as [|a r IH]; destruct l2 as [|c r2]; cbn; intro H; try reflexivity; try lia.
  rewrite IH by lia. apply andb_false_r.
Qed.

(** tuples, records and union cases are compared field by field once types and field counts
    agree; otherwise both the model and the specification answer false *)
Lemma guarded_by_length : forall c l1 l2 X,
  (vlen l1 = vlen l2 -> X = Ok (struct_eq_list l1 l2)) ->
  (if c && Nat.eqb (vlen l1) (vlen l2) then X else Ok false) = Ok (c && struct_eq_list l1 l2).
Proof.
  intros c l1 l2 X H. destruct c; [|reflexivity]. cbn [andb].
  destruct (Nat.eqb_spec (vlen l1) (vlen l2)) as [E|E]; [exact (H E)|].
  rewrite struct_eq_list_length by exact E. reflexivity.
Qed.

(** cmp.Equal with Exporter + EquateEmpty is struct_eq and never panics.  Stated for the four mutual
    functions at once.  The clause about the head of [l1] is there for slices of different lengths:
    the model then still compares the first pair, whose verdict the induction on the value [VSlice]
    can only get from the hypothesis on its element list. *)
Lemma go_equal_now :
  (forall a b, go_equal opts_now a b = Ok (struct_eq a b)) /\
  (forall l1,
     match l1 with VCons a _ => forall b, go_equal opts_now a b = Ok (struct_eq a b) | VNil => True end /\
     forall l2, vlen l1 = vlen l2 ->
     go_equal_exported opts_now l1 l2 = Ok (struct_eq_list l1 l2) /\
     (forall names, go_equal_fields opts_now names l1 l2 = Ok (struct_eq_list l1 l2)) /\
     go_equal_elems opts_now l1 l2 = Ok (struct_eq_list l1 l2)).
Proof.
  apply val_vals_ind.
  - intros z b. destruct b; reflexivity.
  - intros s b. destruct b; reflexivity.
  - intros x b. destruct b; reflexivity.
  - intros l IH b. destruct b as [| | |l2| | |]; try reflexivity.
    apply (guarded_by_length true). intro E. apply (proj2 IH l2 E).
  - intros n f l IH b. destruct b as [| | | |n2 f2 l2| |]; try reflexivity.
    apply guarded_by_length. intro E. apply (proj2 IH l2 E).
  - intros u c l IH b. destruct b as [| | | | |u2 c2 l2|]; try reflexivity.
    apply guarded_by_length. intro E. apply (proj2 IH l2 E).
  - intros n l IH b. destruct b as [| | | | | |n2 l2]; try reflexivity. cbn [go_equal struct_eq].
    cbn [equate_empty opts_now andb].
    destruct l as [|a r], l2 as [|a2 r2]; cbn [is_empty andb orb].
    + reflexivity.
    + rewrite andb_false_r, orb_false_r. destruct n; reflexivity.
    + rewrite !andb_false_r. cbn [orb]. destruct n2; reflexivity.
    + rewrite !andb_false_r. cbn [orb].
      destruct (Nat.eqb_spec (vlen (VCons a r)) (vlen (VCons a2 r2))) as [E|E].
      * apply (proj2 IH (VCons a2 r2) E).
      * rewrite struct_eq_list_length by exact E.
        rewrite (proj1 IH a2). cbn [both]. rewrite andb_false_r. reflexivity.
  - split; [exact I|]. intros l2 H. destruct l2; [|discriminate]. repeat split.
  - intros a IHa r IHr. split; [exact IHa|]. intros l2 H. destruct l2 as [|a2 r2]; [discriminate|].
    injection H as H. destruct (proj2 IHr r2 H) as [E1 [E2 E3]].
    cbn [go_equal_exported go_equal_fields go_equal_elems struct_eq_list].
    rewrite IHa, E1, E3. repeat split.
    intro names. rewrite E2. cbn [exporter opts_now]. rewrite orb_true_r. reflexivity.
Qed.

Theorem op_equal_is_struct_eq : forall a b, op_equal a b = Ok (struct_eq a b).
Proof. exact (proj1 go_equal_now). Qed.

Theorem op_not_equal_is_negation : forall a b, op_not_equal a b = Ok (negb (struct_eq a b)).
Proof. intros a b. unfold op_not_equal. rewrite op_equal_is_struct_eq. reflexivity. Qed.

(** representation is invisible: rebuilding any slice by another library path changes nothing *)
Theorem op_equal_ignores_representation : forall a a' b,
  erase a = erase a' -> op_equal a b = op_equal a' b.
Proof.
  intros a a' b H. rewrite !op_equal_is_struct_eq. f_equal. apply eq_iff_eq_true.
  rewrite !struct_eq_iff_erase, H. reflexivity.
Qed.
