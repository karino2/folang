(** C01 — forward simulation MiniFo -> MiniGo for the lowering of Core/Compile.v.
    One induction on the source fuel proves the statements for expressions, expression lists, blocks,
    application and the return-position forms together.  The statement for expressions also says what
    a pure expression (a re-evaluable partial-application argument) adds: no output, and a value that
    [peval] yields too. *)
From Coq Require Import List ZArith String Ascii Bool.
From FoVerif Require Import Core.Common Core.CommonProofs Core.Lib Core.MiniFo Core.MiniGo Core.Compile
  Core.GoRules Core.SimDefs Core.SimLemmas Core.EqSim Core.LibSim.
Import ListNotations.
Open Scope list_scope.

Section Sim.
Variable d : dialect.
Variable ctor_ok : string -> string -> bool -> Prop.
Notation compile := (Compile.compile d).
Notation compile_block := (Compile.compile_block d).
Notation compile_list := (Compile.compile_list d).
Notation compile_arms := (Compile.compile_arms d).
Notation compile_sarms := (Compile.compile_sarms d).
Notation switch_u := (Compile.switch_u d).
Notation switch_s := (Compile.switch_s d).
Notation nv := (Compile.nv d).
Notation nvb := (Compile.nvb d).
Notation nva := (Compile.nva d).
Notation nvs := (Compile.nvs d).

Variable sfuns : list (var * (list var * block)).
Variable gfuncs : list (var * (list var * list gstmt)).
Variable gvars : list (var * gexpr).

Notation wfe := (wfe true ctor_ok).
Notation wfb := (wfb true ctor_ok).
Notation vrel := (vrel d ctor_ok gfuncs).
Notation erel := (erel d ctor_ok gfuncs).
Notation peval := (peval d ctor_ok gfuncs).
Notation pevals := (pevals d ctor_ok gfuncs).
Notation Geval := (Geval gfuncs gvars).
Notation Gevals := (Gevals gfuncs gvars).
Notation Gexec := (Gexec gfuncs gvars).
Notation Gapply := (Gapply gfuncs gvars).

Hypothesis Hfuns : funs_lowered d ctor_ok sfuns gfuncs.
Hypothesis Hctor1 : ctor1_lowered ctor_ok gfuncs.
Hypothesis Hctor0 : ctor0_lowered ctor_ok gfuncs gvars.

Notation var_sim := (var_sim d ctor_ok sfuns gfuncs Hfuns).
Notation peval_Geval_mut := (peval_Geval_mut d ctor_ok gfuncs gvars Hctor1 Hctor0).
Notation veq_sim := (veq_sim d ctor_ok gfuncs).
Notation arrange_rel := (arrange_rel d ctor_ok gfuncs).
Notation Gs_close := (Gs_close gfuncs gvars).

(** what the lowering of [e] does in the target: it evaluates to [gv]; if [e] is pure it moreover emits nothing,
    and [gv] is the value that re-evaluation ([peval]) assigns *)
Definition Teval genv k e t gv t' :=
  Geval genv (compile k e) t gv t' /\ (pure e -> t' = t /\ peval genv k e gv).
(** the same for an argument list, stated as a prefix of any longer list (the closure of a partial application
    appends its parameters).  Appending two [Gevals] facts instead would need that the target's results do not
    depend on the fuel (Core/FuelMono.v), which the simulation does not use. *)
Definition Tevals genv k es t gvs t' :=
  (forall rest rvs t2, Gevals genv rest t' rvs t2 -> Gevals genv (compile_list k es ++ rest) t (gvs ++ rvs) t2) /\
  List.length gvs = List.length es /\
  (Forall pure es -> t' = t /\ pevals genv k es gvs).

Definition ret_rel (v:val) (o:option gval) : Prop := vrel v (ret_val o).

Definition SimE n := forall senv genv e t k, wfe e -> erel senv genv ->
  sim_res vrel (eval sfuns n senv e t) (Teval genv k e t).
Definition SimEs n := forall senv genv es t k, Forall wfe es -> erel senv genv ->
  sim_res (Forall2 vrel) (evals sfuns n senv es t) (Tevals genv k es t).
Definition SimB n := forall senv genv b t k, wfb b -> erel senv genv ->
  sim_res ret_rel (eval_block sfuns n senv b t) (Gexec genv (compile_block k b) t).
Definition SimA n := forall fv gf vs gvs t, vrel fv gf -> Forall2 vrel vs gvs ->
  sim_res vrel (apply sfuns n fv vs t) (Gapply gf gvs t).
(** forms that buildReturn emits without wrapping when they are the last expression of a body.  In expression
    position the same statements sit in an immediately invoked function literal and run at the fuel of the
    expression ([step_E] uses these at [S n]); as the last expression of a block they are evaluated one level
    below the block ([step_B] uses them at [n]).  [SimBE] is there only to give [step_B] the block case at [n]. *)
Definition SimMU n := forall senv genv e u arms def t k, wfe (EMatchU e u arms def) -> erel senv genv ->
  sim_res ret_rel (eval sfuns n senv (EMatchU e u arms def) t) (Gexec genv [switch_u k e u arms def] t).
Definition SimMS n := forall senv genv e arms bx last t k, wfe (EMatchS e arms bx last) -> erel senv genv ->
  sim_res ret_rel (eval sfuns n senv (EMatchS e arms bx last) t) (Gexec genv [switch_s k e arms bx last] t).
Definition SimBE n := forall senv genv b t k, wfe (EBlock b) -> erel senv genv ->
  sim_res ret_rel (eval sfuns n senv (EBlock b) t) (Gexec genv (compile_block k b) t).

(** one step of the source evaluator, and the redexes a [sim_bind] leaves *)
Ltac sstep := cbn [eval evals eval_block apply rbind].

Lemma Teval_pure genv k e t gv : peval genv k e gv -> Teval genv k e t gv t.
Proof. intros P. split; [apply (proj1 (peval_Geval_mut genv)); exact P|intros _; split; [reflexivity|exact P]]. Qed.

(** a construct over one sub-expression, two, or a list: a target rule and the [peval] constructor of the same
    shape give both halves of [Teval] *)
Lemma Teval1 genv k e a t ga t1 gv :
  Teval genv k a t ga t1 -> (pure e -> pure a) ->
  (Geval genv (compile k a) t ga t1 -> Geval genv (compile k e) t gv t1) ->
  (peval genv k a ga -> peval genv k e gv) -> Teval genv k e t gv t1.
Proof. intros (Ga & Pa) I C Q. split; [exact (C Ga)|]. intros P. destruct (Pa (I P)) as (-> & Qa). auto. Qed.

Lemma Teval2 genv k k2 e a b t ga t1 gb t2 gv :
  Teval genv k a t ga t1 -> Teval genv k2 b t1 gb t2 -> (pure e -> pure a /\ pure b) ->
  (Geval genv (compile k a) t ga t1 -> Geval genv (compile k2 b) t1 gb t2 -> Geval genv (compile k e) t gv t2) ->
  (peval genv k a ga -> peval genv k2 b gb -> peval genv k e gv) -> Teval genv k e t gv t2.
Proof.
  intros (Ga & Pa) (Gb & Pb) I C Q. split; [exact (C Ga Gb)|].
  intros P. destruct (I P) as (P1 & P2), (Pa P1) as (-> & Qa), (Pb P2) as (-> & Qb). auto.
Qed.

Lemma TevalL genv k e es t gvs t1 gv :
  Tevals genv k es t gvs t1 -> (pure e -> Forall pure es) ->
  (Gevals genv (compile_list k es) t gvs t1 -> Geval genv (compile k e) t gv t1) ->
  (pevals genv k es gvs -> peval genv k e gv) -> Teval genv k e t gv t1.
Proof.
  intros (Gs & _ & Ps) I C Q. split; [apply C, Gs_close, Gs|]. intros P. destruct (Ps (I P)) as (-> & Qs). auto.
Qed.

Lemma sim_impure r genv k e t :
  (pure e -> False) -> sim_res vrel r (Geval genv (compile k e) t) -> sim_res vrel r (Teval genv k e t).
Proof.
  intros N H a t' Ha. destruct (H a t' Ha) as (b & G & V).
  exists b; split; [split; [exact G|intros P; destruct (N P)]|exact V].
Qed.

Lemma sim_iife r genv body t :
  sim_res ret_rel r (Gexec genv body t) -> sim_res vrel r (Geval genv (GCall (GFunc [] body) []) t).
Proof.
  intros H a t' Ha. destruct (H a t' Ha) as (o & G & V). exists (ret_val o); split; [apply G_iife; exact G|exact V].
Qed.

Lemma fields_rel : forall (fields:list string) vs gvs,
  Forall2 vrel vs gvs ->
  Forall2 (fun a b => fst a = fst b /\ vrel (snd a) (snd b)) (combine fields vs) (combine fields gvs).
Proof.
  induction fields as [|f fields IH]; intros vs gvs V; cbn; [constructor|].
  inversion V; subst; [constructor|]. constructor; [cbn; auto|apply IH; assumption].
Qed.

Lemma step_Es n : SimE n -> SimEs n -> SimEs (S n).
Proof.
  intros IE IEs senv genv es t k W E. destruct W as [|a es Wa Ws]; sstep.
  - apply sim_ret with []; [repeat split|constructor]; [intros rest rvs t2 G; exact G|constructor].
  - eapply sim_bind; [exact (IE _ _ _ _ k Wa E)|intros v gv t1 V (G & P)].
    eapply sim_bind; [exact (IEs _ _ _ _ (k + nv a) Ws E)|intros vs gvs t2 Vs (Gs & L & Ps)].
    apply sim_ret with (gv :: gvs); [split; [|split]|constructor; assumption].
    + intros rest rvs t3 Gr. cbn [compile_list app]. eapply Gs_cons; [exact G|apply Gs; exact Gr].
    + cbn [List.length]. rewrite L. reflexivity.
    + intros Pu. inversion Pu as [|? ? P1 P2]; subst. destruct (P P1) as (-> & Q1), (Ps P2) as (-> & Q2).
      split; [reflexivity|constructor; assumption].
Qed.

Lemma step_A n : SimB n -> SimA n -> SimA (S n).
Proof.
  intros IB IA fv gf vs gvs t V Vs. sstep.
  destruct V as [| | | | | | | | |senv genv ps b k Hs1 Hs2 Hs3 Hps Wb|fv0 vs0 m u genv f args k Rf Wa Pa K];
    try apply sim_stuck.
  - (* closure *)
    destruct (bind ps vs senv) as [senv'|] eqn:B; [|apply sim_stuck].
    destruct (bind_erel d ctor_ok gfuncs _ _ _ _ genv _ Hps (conj Hs1 (conj Hs2 Hs3)) Vs B) as (genv' & B' & E').
    intros v t' H. destruct (IB _ _ _ _ k Wb E' _ _ H) as (o & G & Vo).
    exists (ret_val o); split; [eapply Ga_clo; eassumption|exact Vo].
  - (* partial application value: the closure re-evaluates the supplied arguments, then calls *)
    destruct (Nat.eqb (List.length vs) (S m)) eqn:Lk; [|apply sim_stuck]. apply Nat.eqb_eq in Lk.
    destruct (bind_length (rnames (S m) 0) gvs genv) as (env' & B').
    { rewrite rnames_length, <- (Forall2_length' Vs); exact (eq_sym Lk). }
    destruct (K _ (bind_rnames_equiv _ _ _ _ _ B')) as ((gf0 & Lf & Vf) & gws & Pw & Vw).
    eapply sim_bind; [exact (IA _ _ _ _ t Vf (Forall2_app Vw Vs))|intros v gv t1 V' G].
    apply sim_check_unit; intros Hu. exists (if u then GVUnit else gv); split.
    + eapply ret_stmt_apply; [exact B'|]. eapply G_call; [apply G_var; exact Lf| |exact G].
      eapply (proj2 (peval_Geval_mut _)); [exact Pw|]. eapply bind_rnames_vars; exact B'.
    + destruct u; [rewrite (Hu eq_refl); constructor|exact V'].
Qed.

Lemma find_arm_compile u tmp c : forall arms k,
  match find_arm c arms with
  | Some (bx, b) => exists k', find_case (case_struct u c) (compile_arms u tmp k arms)
                               = Some (case_header tmp bx ++ compile_block k' b) /\ In (c, bx, b) arms
  | None => find_case (case_struct u c) (compile_arms u tmp k arms) = None
  end.
Proof.
  induction arms as [|[[c' bx'] b'] arms IH]; intros k; cbn [find_arm compile_arms find_case]; [reflexivity|].
  rewrite case_struct_eqb. destruct (String.eqb c c') eqn:Ec.
  - apply String.eqb_eq in Ec; subst. eexists; split; [reflexivity|left; reflexivity].
  - specialize (IH (k + nvb b')). destruct (find_arm c arms) as [[bx b]|]; [|exact IH].
    destruct IH as (k' & Fc & I). exists k'; split; [exact Fc|right; exact I].
Qed.

Lemma find_sarm_compile s : forall arms k,
  match find_sarm s arms with
  | Some b => exists k', find_case s (compile_sarms k arms) = Some (compile_block k' b) /\ In (s, b) arms
  | None => find_case s (compile_sarms k arms) = None
  end.
Proof.
  induction arms as [|[l b'] arms IH]; intros k; cbn [find_sarm compile_sarms find_case]; [reflexivity|].
  destruct (String.eqb s l) eqn:Ec.
  - apply String.eqb_eq in Ec; subst. eexists; split; [reflexivity|left; reflexivity].
  - specialize (IH (k + nvb b')). destruct (find_sarm s arms); [|exact IH].
    destruct IH as (k' & Fc & I). exists k'; split; [exact Fc|right; exact I].
Qed.

Lemma step_MU n : SimE n -> SimB n -> SimMU (S n).
Proof.
  intros IE IB senv genv e u arms def t k W E. destruct (wfe_inv _ _ _ W) as (We & Warms & Wdef).
  rewrite Forall_forall in Warms. sstep. unfold switch_u.
  set (hv := has_case_var arms). set (tmp := vname (S k)). set (k0 := k + match_tmps d arms).
  eapply sim_bind; [exact (IE _ _ _ _ k0 We E)|intros v1 g1 t1 V1 (G1 & _)].
  destruct v1 as [| | | | | |un c payload| | |]; try apply sim_stuck.
  destruct (String.eqb un u) eqn:Eu; [|apply sim_stuck]. apply String.eqb_eq in Eu; subst un.
  assert (exists fs, g1 = GVStruct (case_struct u c) fs /\
            match payload with
            | Some pv => exists gpv, fs = [("Value"%string, gpv)] /\ vrel pv gpv
            | None => fs = []
            end) as (fs & -> & Hfs)
    by (inversion V1; subst; eexists; split; try reflexivity; eauto).
  assert (Ee : erel senv (switch_env (if hv then Some tmp else None) (GVStruct (case_struct u c) fs) genv))
    by (destruct hv; cbn [switch_env]; [apply erel_tmp; [exact E|reflexivity]|exact E]).
  pose proof (find_arm_compile u tmp c arms (k0 + nv e)) as Fc. destruct (find_arm c arms) as [[[x|] b]|].
  - (* arm with a binder *)
    destruct payload as [pv|]; [|apply sim_stuck]. destruct Hfs as (gpv & -> & Vp).
    destruct Fc as (k' & Fc & I).
    destruct (Warms _ I) as (Rx & Wb). cbn in Rx, Wb.
    assert (E' : erel ((x, pv) :: senv) ((x, gpv) :: (tmp, GVStruct (case_struct u c) [("Value"%string, gpv)]) :: genv))
      by (apply erel_bind1; [exact Rx|exact Vp|]; apply erel_tmp; [exact E|reflexivity]).
    apply (sim_mono (IB _ _ _ _ k' Wb E')). intros o t' G. eapply Gx_typeswitch_last; [exact G1|].
    unfold switch_body. rewrite Fc. fold hv. replace hv with true
      by (symmetry; apply existsb_exists; exists (c, Some x, b); split; [exact I|reflexivity]).
    cbn [switch_env case_header app]. eapply Gx_define1; [|exact G].
    eapply G_sel; [apply G_var; unfold glookup; rewrite lookup_cons_eq; reflexivity|apply lookup_cons_eq].
  - (* arm without binder *)
    destruct Fc as (k' & Fc & I).
    destruct (Warms _ I) as (_ & Wb). cbn in Wb.
    apply (sim_mono (IB _ _ _ _ k' Wb Ee)).
    intros o t' G. eapply Gx_typeswitch_last; [exact G1|]. unfold switch_body. rewrite Fc. exact G.
  - (* default *)
    destruct def as [b|]; [|apply sim_stuck].
    apply (sim_mono (IB _ _ _ _ (k0 + nv e + nva arms) (Wdef b eq_refl) Ee)).
    intros o t' G. eapply Gx_typeswitch_last; [exact G1|].
    unfold switch_body. rewrite Fc. exact G.
Qed.

Lemma step_MS n : SimE n -> SimB n -> SimMS (S n).
Proof.
  intros IE IB senv genv e arms bx last t k W E. destruct (wfe_inv _ _ _ W) as (We & Warms & Wbx & Wlast).
  rewrite Forall_forall in Warms. sstep. unfold switch_s.
  eapply sim_bind; [exact (IE _ _ _ _ k We E)|intros v1 g1 t1 V1 (G1 & _)].
  destruct V1 as [|s| | | | | | | | |]; try apply sim_stuck.
  assert (Ee : erel (match bx with Some x => (x, VStr s) :: senv | None => senv end)
                    (switch_env bx (GVStr s) genv))
    by (destruct bx as [x|]; cbn [switch_env]; [apply erel_bind1; [exact Wbx|constructor|exact E]|exact E]).
  pose proof (find_sarm_compile s arms (k + nv e)) as Fc. destruct (find_sarm s arms) as [b|].
  - destruct Fc as (k' & Fc & I).
    apply (sim_mono (IB _ _ _ _ k' (Warms _ I) Ee)).
    intros o t' G. eapply Gx_switch_last; [exact G1|]. unfold switch_body. rewrite Fc. exact G.
  - apply (sim_mono (IB _ _ _ _ (k + nv e + nvs arms) Wlast Ee)).
    intros o t' G. eapply Gx_switch_last; [exact G1|]. unfold switch_body. rewrite Fc. exact G.
Qed.

Lemma step_BE n : SimB n -> SimBE (S n).
Proof. intros IB senv genv b t k W E. exact (IB _ _ _ _ k (wfe_inv _ _ _ W) E). Qed.

Lemma destr_pure (gvs:list gval) (xs:list var) :
  List.length xs = List.length gvs -> two_or_three (List.length xs) ->
  lib_pure gops (destr_fn d (List.length xs)) [GVStruct (tuple_struct (List.length gvs)) (combine tuple_fields gvs)]
  = Some (GVMulti gvs).
Proof.
  intros L T. rewrite L in *.
  destruct gvs as [|a [|b [|c [|d0 gvs]]]]; cbn [List.length] in *; destruct T as [T|T]; try discriminate T;
    case d; reflexivity.
Qed.

Lemma step_B n : SimE n -> SimB n -> SimMU n -> SimMS n -> SimBE n -> SimB (S n).
Proof.
  intros IE IB IMU IMS IBE senv genv b t k W E.
  destruct W as [x e b' Rx We Wb|xs e b' Rxs T We Wb|e b' We Wb|e u We]; sstep.
  - (* let *)
    eapply sim_bind; [exact (IE _ _ _ _ k We E)|intros v1 g1 t1 V1 (G1 & _)].
    assert (E' : erel ((x, v1) :: senv) ((x, g1) :: genv)) by (apply erel_bind1; assumption).
    apply (sim_mono (IB _ _ _ _ (k + nv e) Wb E')).
    intros o t' G. cbn [compile_block]. eapply Gx_define1; eassumption.
  - (* destructuring let *)
    eapply sim_bind; [exact (IE _ _ _ _ k We E)|intros v1 g1 t1 V1 (G1 & _)].
    destruct V1 as [| | | |vs gvs Vs _| | | | | |]; try apply sim_stuck.
    destruct (bind xs vs senv) as [senv'|] eqn:B; [|apply sim_stuck].
    destruct (bind_erel d ctor_ok gfuncs _ _ _ _ _ _ Rxs E Vs B) as (genv' & B' & E').
    apply (sim_mono (IB _ _ _ _ (k + nv e) Wb E')).
    intros o t' G. cbn [compile_block]. eapply Gx_define_multi; [| |exact B'|exact G].
    + destruct T as [T|T]; rewrite T; discriminate.
    + eapply G_libcall; [eapply Gs_cons; [exact G1|apply Gs_nil]|]. apply Gl_pure.
      * destruct T as [T|T]; rewrite T; case d; reflexivity.
      * apply destr_pure; [exact (bind_some_length _ _ _ _ B')|exact T].
  - (* do *)
    eapply sim_bind; [exact (IE _ _ _ _ k We E)|intros v1 g1 t1 V1 (G1 & _)].
    apply (sim_mono (IB _ _ _ _ (k + nv e) Wb E)).
    intros o t' G. cbn [compile_block]. eapply Gx_expr; eassumption.
  - (* final expression *)
    assert (Generic : compile_block k (BRet e u) = [ret_stmt u (compile k e)] ->
              sim_res ret_rel (doo v, t1 <- eval sfuns n senv e t; check_unit u v t1)
                      (Gexec genv (compile_block k (BRet e u)) t)).
    { intros ->. eapply sim_bind; [exact (IE _ _ _ _ k We E)|intros v1 g1 t1 V1 (G1 & _)].
      apply sim_check_unit; intros Hu. destruct u.
      - exists None; split; [eapply Gx_expr; [exact G1|apply Gx_nil]|rewrite (Hu eq_refl); constructor].
      - exists (Some g1); split; [apply Gx_return; exact G1|exact V1]. }
    destruct e; try (apply Generic; reflexivity); clear Generic.
    + (* () *)
      destruct n; [apply sim_fuel|]. sstep. apply sim_check_unit; intros _. destruct u; cbn [compile_block].
      * exists None; split; [apply Gx_nil|constructor].
      * exists (Some GVUnit); split; [apply Gx_return, G_none|constructor].
    + (* union match *)
      eapply sim_bind; [exact (IMU _ _ _ _ _ _ _ k We E)|intros v1 o t1 V1 G].
      apply sim_check_unit; intros _. exists o; split; [exact G|exact V1].
    + (* string match *)
      eapply sim_bind; [exact (IMS _ _ _ _ _ _ _ k We E)|intros v1 o t1 V1 G].
      apply sim_check_unit; intros _. exists o; split; [exact G|exact V1].
    + (* block *)
      eapply sim_bind; [exact (IBE _ _ _ _ k We E)|intros v1 o t1 V1 G].
      apply sim_check_unit; intros _. exists o; split; [exact G|exact V1].
Qed.

(** string interpolation: frt.SInterP on the format built by ParseSInterP *)
Lemma interp_sim senv genv : forall parts s,
  erel senv genv ->
  Forall (fun p : string + var => match p with inr x => reserved x = false | inl _ => True end) parts ->
  interp_text sfuns senv parts = Some s ->
  exists gvs ss,
    (forall t, Gevals genv (interp_args parts) t gvs t) /\
    all_some (map (to_s gops) gvs) = Some ss /\
    format_s (interp_fmt parts) ss = Some s.
Proof.
  induction parts as [|[txt|x] parts IH]; intros s E W H; cbn in H.
  - injection H as <-. exists [], []. repeat split; intros; apply Gs_nil.
  - inversion W as [|? ? _ Wp]; subst.
    destruct (interp_text sfuns senv parts) as [s'|] eqn:I; [|discriminate]. injection H as <-.
    destruct (IH _ E Wp eq_refl) as (gvs & ss & G & A & F).
    exists gvs, ss. repeat split; auto.
    cbn [interp_fmt]. rewrite format_s_escape, F. reflexivity.
  - inversion W as [|? ? Rx Wp]; subst.
    destruct (lookup_var sfuns x senv) as [v|] eqn:L; [|discriminate].
    destruct (hole_text v) as [a|] eqn:Ht; [|discriminate].
    destruct (interp_text sfuns senv parts) as [s'|] eqn:I; [|discriminate]. injection H as <-.
    destruct (IH _ E Wp eq_refl) as (gvs & ss & G & A & F).
    destruct (var_sim _ _ _ _ E Rx L) as (gv & Lg & V).
    exists (gv :: gvs), (a :: ss). repeat split.
    + intros t. cbn. eapply Gs_cons; [apply G_var; exact Lg|apply G].
    + cbn [map all_some]. unfold to_s in *. rewrite (fmt_atom_rel d ctor_ok gfuncs _ _ V), A.
      unfold hole_text in Ht. rewrite Ht. reflexivity.
    + cbn. rewrite F. reflexivity.
Qed.

Lemma eval_arith n senv op a b t : op <> OAnd -> op <> OOr ->
  eval sfuns (S n) senv (EBin op a b) t =
  doo va, t1 <- eval sfuns n senv a t; doo vb, t2 <- eval sfuns n senv b t1;
  of_opt (arith_why sops op va vb) (arith sops op va vb) t2.
Proof. intros N1 N2; destruct op; reflexivity || contradiction. Qed.

(** [a |> stage]: frt.Pipe / frt.PipeUnit applied to the piped value and the stage's value *)
Lemma pipe_sim genv ce stage t g1 t1 sv u v gv t2 :
  Geval genv ce t g1 t1 -> Geval genv stage t1 sv t1 -> Gapply sv [g1] t1 gv t2 -> (u = false -> vrel v gv) ->
  sim_res vrel (check_unit u v t2) (Geval genv (GCall (GLib (pipe_fn u)) [ce; stage]) t).
Proof.
  intros G1 Gst Gap V. apply sim_check_unit; intros Hu.
  assert (Gs2 : Gevals genv [ce; stage] t [g1; sv] t1)
    by (eapply Gs_cons; [exact G1|eapply Gs_cons; [exact Gst|apply Gs_nil]]).
  destruct u; cbn [pipe_fn].
  - exists GVUnit; split; [|rewrite (Hu eq_refl); constructor].
    eapply G_libcall; [exact Gs2|eapply Gl_pipeunit; exact Gap].
  - exists gv; split; [|exact (V eq_refl)]. eapply G_libcall; [exact Gs2|apply Gl_pipe; exact Gap].
Qed.

Lemma step_E n : SimE n -> SimEs n -> SimB n -> SimA n -> SimMU (S n) -> SimMS (S n) -> SimBE (S n) -> SimE (S n).
Proof.
  intros IE IEs IB IA HMU HMS HBE senv genv e t k W E.
  pose proof (wfe_inv _ _ _ W) as Wi.
  destruct e; try (apply sim_impure; [exact (pure_inv _)|]).
  1-3: sstep; eapply sim_ret; [apply Teval_pure; constructor|constructor].
  - sstep. eapply sim_ret; [apply G_none|constructor].
  - (* variable *)
    sstep. apply sim_of_opt; intros v L. destruct (var_sim _ _ _ _ E Wi L) as (gv & L' & V).
    exists gv; split; [apply Teval_pure; constructor; exact L'|exact V].
  - (* binary operators *)
    destruct Wi as (Wa & Wb).
    assert (Arith : op <> OAnd -> op <> OOr ->
              sim_res vrel (eval sfuns (S n) senv (EBin op e1 e2) t) (Teval genv k (EBin op e1 e2) t)).
    { intros N1 N2. rewrite (eval_arith _ _ _ _ _ _ N1 N2).
      eapply sim_bind; [exact (IE _ _ _ _ k Wa E)|intros va ga t1 Va Ta].
      eapply sim_bind; [exact (IE _ _ _ _ (k + nv e1) Wb E)|intros vb gb t2 Vb Tb].
      apply sim_of_opt; intros v A. destruct (arith_sim _ _ _ _ _ _ _ _ _ Va Vb A) as (gv & A' & V).
      exists gv; split; [|exact V].
      eapply Teval2; [exact Ta|exact Tb|apply pure_inv|intros; eapply G_arith; eassumption
                     |intros; eapply PE_arith; eassumption]. }
    destruct op; try (apply Arith; discriminate); clear Arith; sstep;
      (eapply sim_bind; [exact (IE _ _ _ _ k Wa E)|intros va ga t1 Va Ta]);
      destruct Va as [| |[|]| | | | | | | |]; try apply sim_stuck.
    + (* true && b *)
      eapply sim_bind; [exact (IE _ _ _ _ (k + nv e1) Wb E)|intros vb gb t2 Vb Tb].
      destruct Vb as [| |y| | | | | | | |]; try apply sim_stuck.
      apply sim_ret with (GVBool y); [|constructor].
      eapply Teval2; [exact Ta|exact Tb|apply pure_inv|apply G_and_true|apply PE_and_true].
    + (* false && b *)
      apply sim_ret with (GVBool false); [|constructor].
      eapply Teval1; [exact Ta|intros P; apply (pure_inv _ P)|apply G_and_false|apply PE_and_false].
    + (* true || b *)
      apply sim_ret with (GVBool true); [|constructor].
      eapply Teval1; [exact Ta|intros P; apply (pure_inv _ P)|apply G_or_true|apply PE_or_true].
    + (* false || b *)
      eapply sim_bind; [exact (IE _ _ _ _ (k + nv e1) Wb E)|intros vb gb t2 Vb Tb].
      destruct Vb as [| |y| | | | | | | |]; try apply sim_stuck.
      apply sim_ret with (GVBool y); [|constructor].
      eapply Teval2; [exact Ta|exact Tb|apply pure_inv|apply G_or_false|apply PE_or_false].
  - (* = <> *)
    destruct Wi as (Wa & Wb). sstep.
    eapply sim_bind; [exact (IE _ _ _ _ k Wa E)|intros va ga t1 Va Ta].
    eapply sim_bind; [exact (IE _ _ _ _ (k + nv e1) Wb E)|intros vb gb t2 Vb Tb].
    destruct (val_eq va vb) as [r|] eqn:Q; [|apply sim_stuck]. pose proof (veq_sim _ _ _ _ _ Va Vb Q) as Q'.
    apply sim_ret with (GVBool (if neg then negb r else r)); [|destruct neg; constructor].
    eapply Teval2; [exact Ta|exact Tb|apply pure_inv|intros; eapply C_eq; eassumption
                   |intros; eapply PE_eq; eassumption].
  - (* not *)
    sstep. eapply sim_bind; [exact (IE _ _ _ _ k Wi E)|intros va ga t1 Va Ta].
    destruct Va as [| |c| | | | | | | |]; try apply sim_stuck.
    apply sim_ret with (GVBool (negb c)); [|constructor].
    eapply Teval1; [exact Ta|apply pure_inv|apply C_not|apply PE_not].
  - (* if *)
    destruct Wi as (Wc & Wt & Wf & U). sstep.
    eapply sim_bind; [exact (IE _ _ _ _ k Wc E)|intros vc gc t1 Vc (Gc & _)].
    destruct Vc as [| |c0| | | | | | | |]; try apply sim_stuck.
    intros v t' Hb.
    assert (exists o, Gexec genv (if c0 then compile_block (k + nv e) bt else compile_block (k + nv e + nvb bt) bf) t1 o t'
                      /\ vrel v (ret_val o)) as (o & G & Vo)
      by (destruct c0; [exact (IB _ _ _ _ _ Wt E _ _ Hb)|exact (IB _ _ _ _ _ Wf E _ _ Hb)]).
    assert (Hu : block_unit bt = true -> v = VUnit)
      by (intros Ub; destruct c0; eapply eval_block_unit; try exact Hb; congruence).
    assert (Ga : Gapply (if c0 then GVClo genv [] (compile_block (k + nv e) bt)
                              else GVClo genv [] (compile_block (k + nv e + nvb bt) bf)) [] t1 (ret_val o) t')
      by (destruct c0; (eapply Ga_clo; [reflexivity|exact G])).
    assert (Gs3 : forall b1 b2, Gevals genv [compile k e; GFunc [] b1; GFunc [] b2] t
                                  [GVBool c0; GVClo genv [] b1; GVClo genv [] b2] t1)
      by (intros; eapply Gs_cons; [exact Gc|eapply Gs_cons; [apply G_func|eapply Gs_cons; [apply G_func|apply Gs_nil]]]).
    cbn [compile]. destruct (block_unit bt).
    + exists GVUnit; split; [|rewrite (Hu eq_refl); constructor].
      eapply G_libcall; [apply Gs3|eapply Gl_ifelseunit; exact Ga].
    + exists (ret_val o); split; [|exact Vo]. eapply G_libcall; [apply Gs3|apply Gl_ifelse; exact Ga].
  - (* if without else *)
    destruct Wi as (Wc & Wt). sstep.
    eapply sim_bind; [exact (IE _ _ _ _ k Wc E)|intros vc gc t1 Vc (Gc & _)].
    destruct Vc as [| |c| | | | | | | |]; try apply sim_stuck.
    assert (Gs2 : forall b1, Gevals genv [compile k e; GFunc [] b1] t [GVBool c; GVClo genv [] b1] t1)
      by (intros; eapply Gs_cons; [exact Gc|eapply Gs_cons; [apply G_func|apply Gs_nil]]).
    destruct c; cbn [compile].
    + eapply sim_bind; [exact (IB _ _ _ _ (k + nv e) Wt E)|intros v o t2 Vo G].
      apply sim_ret with GVUnit; [|constructor].
      eapply G_libcall; [apply Gs2|]. eapply Gl_ifonly_true, Ga_clo; [reflexivity|exact G].
    + apply sim_ret with GVUnit; [|constructor]. eapply G_libcall; [apply Gs2|apply Gl_ifonly_false].
  - (* lambda *)
    destruct Wi as (Wp & Wb). sstep.
    apply sim_ret with (GVClo genv ps (compile_block k b)); [apply Teval_pure; constructor|].
    destruct E as (E1 & E2 & E3). constructor; assumption.
  - (* call *)
    destruct missing as [|m].
    + apply sim_impure; [exact (pure_inv _)|]. destruct Wi as (Rf & Wa). sstep.
      destruct (lookup_var sfuns f senv) as [fv|] eqn:L; [|apply sim_stuck].
      destruct (var_sim _ _ _ _ E Rf L) as (gf & L' & Vf).
      eapply sim_bind; [exact (IEs _ _ _ _ k Wa E)|intros vs gvs t1 Vs (Gs & _)].
      apply (sim_mono (IA _ _ _ _ _ Vf Vs)). intros gv t' Ga.
      (* stated, not left to unification: [compile]'s local list function and [compile_list] are only
         convertible, and comparing them by unfolding is slow to check *)
      change (compile k (ECall f 0 retunit args)) with (GCall (GVar f) (compile_list k args)).
      eapply G_call; [apply G_var; exact L'|apply Gs_close; exact Gs|exact Ga].
    + (* partial application: the arguments are pure; the closure will re-evaluate them in an environment that
         differs from this one in temporaries only *)
      destruct Wi as (Rf & Wa & Pa). specialize (Pa eq_refl). sstep.
      destruct (lookup_var sfuns f senv) as [fv|] eqn:L; [|apply sim_stuck].
      intros v t' H. destruct (evals sfuns n senv args t) as [vs t1| |] eqn:Es; try discriminate H.
      injection H as <- <-.
      destruct (IEs _ _ _ _ k Wa E _ _ Es) as (gvs & (_ & _ & Ps) & _). destruct (Ps Pa) as (-> & _); clear gvs Ps.
      eexists; split; [apply Teval_pure; constructor|].
      constructor; auto. intros env' Q. pose proof (erel_equiv _ _ _ _ _ _ E Q) as E'. split.
      * exact (var_sim _ _ _ _ E' Rf L).
      * destruct (IEs _ _ _ _ k Wa E' _ _ Es) as (gvs & (_ & _ & Ps') & Vs). exists gvs; split; [apply Ps'; exact Pa|exact Vs].
  - (* library call *)
    destruct Wi as (Sf & Wa). sstep. rewrite Sf.
    eapply sim_bind; [exact (IEs _ _ _ _ k Wa E)|intros vs gvs t1 Vs (Gs & _)].
    apply (sim_mono (lib_sem_sim d ctor_ok gfuncs gvars _ IA fn _ _ _ Sf Vs)).
    intros gv t' Gl. change (compile k (EExt fn args)) with (GCall (GLib fn) (compile_list k args)).
    eapply G_libcall; [apply Gs_close; exact Gs|exact Gl].
  - (* a |> f *)
    destruct Wi as (Wa & Rf). sstep.
    eapply sim_bind; [exact (IE _ _ _ _ k Wa E)|intros va ga t1 Va (Ga & _)].
    destruct (lookup_var sfuns f senv) as [fv|] eqn:L; [|apply sim_stuck].
    destruct (var_sim _ _ _ _ E Rf L) as (gf & L' & Vf).
    eapply sim_bind; [exact (IA _ _ [va] [ga] _ Vf (Forall2_cons _ _ Va (Forall2_nil _)))|intros v gv t2 V Gap].
    cbn [compile]. eapply pipe_sim; [exact Ga|apply G_var; exact L'|exact Gap|intros _; exact V].
  - (* a |> f args *)
    destruct Wi as (Wa & Rf & Ws). sstep.
    eapply sim_bind; [exact (IE _ _ _ _ k Wa E)|intros va ga t1 Va (Ga & _)].
    destruct (lookup_var sfuns f senv) as [fv|] eqn:L; [|apply sim_stuck].
    assert (E' : erel senv ((rname 0, ga) :: genv)) by (apply erel_tmp; [exact E|reflexivity]).
    destruct (var_sim _ _ _ _ E' Rf L) as (gf & L' & Vf).
    eapply sim_bind; [exact (IEs _ _ _ _ (k + nv e) Ws E')|intros vs gvs t2 Vs (Gs & _)].
    eapply sim_bind; [exact (IA _ _ _ _ _ Vf (Forall2_app Vs (Forall2_cons _ _ Va (Forall2_nil _))))|intros v gv t3 V Gap].
    change (compile k (EPipeCall e f args retunit)) with
      (GCall (GLib (pipe_fn retunit))
         [compile k e; GFunc (rnames 1 0)
            [ret_stmt retunit (GCall (GVar f) (compile_list (k + nv e) args ++ map GVar (rnames 1 0)))]]).
    eapply pipe_sim with (gv := if retunit then GVUnit else gv); [exact Ga|apply G_func| |intros ->; exact V].
    eapply ret_stmt_apply; [reflexivity|]. eapply G_call; [apply G_var; exact L'| |exact Gap].
    apply Gs. eapply Gs_cons; [apply G_var; unfold glookup; rewrite lookup_cons_eq; reflexivity|apply Gs_nil].
  - (* a |> lib.F args *)
    destruct Wi as (Wa & Sf & Ws). sstep. rewrite Sf.
    eapply sim_bind; [exact (IE _ _ _ _ k Wa E)|intros va ga t1 Va (Ga & _)].
    assert (E' : erel senv ((rname 0, ga) :: genv)) by (apply erel_tmp; [exact E|reflexivity]).
    destruct args as [|a0 args].
    + (* the library function itself is the stage *)
      destruct n; [apply sim_fuel|]. cbn [evals rbind app].
      eapply sim_bind; [exact (lib_sem_sim d ctor_ok gfuncs gvars _ IA fn _ _ _ Sf
                                 (Forall2_cons _ _ Va (Forall2_nil _)))|intros v gv t3 V Gl].
      change (compile k (EPipeExt e fn [] retunit)) with (GCall (GLib (pipe_fn retunit)) [compile k e; GLib fn]).
      eapply pipe_sim; [exact Ga|apply G_lib|apply Ga_lib; exact Gl|intros _; exact V].
    + eapply sim_bind; [exact (IEs _ _ _ _ (k + nv e) Ws E')|intros vs gvs t2 Vs (Gs & _)].
      eapply sim_bind; [exact (lib_sem_sim d ctor_ok gfuncs gvars _ IA fn _ _ _ Sf
                                 (Forall2_app Vs (Forall2_cons _ _ Va (Forall2_nil _))))|intros v gv t3 V Gl].
      change (compile k (EPipeExt e fn (a0 :: args) retunit)) with
        (GCall (GLib (pipe_fn retunit))
           [compile k e; GFunc (rnames 1 0)
              [ret_stmt retunit (GCall (GLib fn) (compile_list (k + nv e) (a0 :: args) ++ map GVar (rnames 1 0)))]]).
      eapply pipe_sim with (gv := if retunit then GVUnit else gv); [exact Ga|apply G_func| |intros ->; exact V].
      eapply ret_stmt_apply; [reflexivity|]. eapply G_libcall; [|exact Gl].
      apply Gs. eapply Gs_cons; [apply G_var; unfold glookup; rewrite lookup_cons_eq; reflexivity|apply Gs_nil].
  - (* tuple *)
    destruct Wi as (Ws & T). sstep.
    eapply sim_bind; [exact (IEs _ _ _ _ k Ws E)|intros vs gvs t1 Vs Ts]. pose proof (proj1 (proj2 Ts)) as L.
    apply sim_ret with (GVStruct (tuple_struct (List.length gvs)) (combine tuple_fields gvs)).
    + eapply TevalL; [exact Ts|apply pure_inv|intros; apply C_tuple; assumption|intros; apply PE_tuple; assumption].
    + constructor; [exact Vs|]. rewrite (Forall2_length' Vs), L. exact T.
  - (* record *)
    destruct Wi as (Ws & _). sstep.
    eapply sim_bind; [exact (IEs _ _ _ _ k Ws E)|intros vs gvs t1 Vs Ts].
    destruct (Nat.eqb (List.length fields) (List.length vs)) eqn:Ln; [|apply sim_stuck]. apply Nat.eqb_eq in Ln.
    rewrite (Forall2_length' Vs), (proj1 (proj2 Ts)) in Ln.
    destruct (arrange decl (combine fields vs)) as [rfs|] eqn:Ar; [|apply sim_stuck].
    destruct (arrange_rel decl _ _ _ (fields_rel fields _ _ Vs) Ar) as (gfs & Ag & Fr).
    apply sim_ret with (GVStruct name gfs); [|constructor; exact Fr].
    eapply TevalL; [exact Ts|apply pure_inv|intros; eapply C_record; eassumption|intros; eapply PE_record; eassumption].
  - (* field *)
    sstep. eapply sim_bind; [exact (IE _ _ _ _ k Wi E)|intros v1 g1 t1 V1 T1].
    destruct V1 as [| | | | |rn fs gfs F| | | | |]; try apply sim_stuck.
    apply sim_of_opt; intros v L. destruct (lookup_rel d ctor_ok gfuncs _ _ _ _ F L) as (gv & Lg & V).
    exists gv; split; [|exact V].
    eapply Teval1; [exact T1|apply pure_inv|intros; eapply G_sel; eassumption|intros; eapply PE_field; eassumption].
  - (* constructors *)
    pose proof (proj2 (proj2 E) _ (ctor_name_like uname cname)) as Le.
    destruct arg as [a|]; sstep.
    + destruct Wi as (Hc & Wa).
      eapply sim_bind; [exact (IE _ _ _ _ k Wa E)|intros va ga t1 Va Ta].
      eapply sim_ret; [|constructor; exact Va].
      eapply Teval1; [exact Ta|apply pure_inv|apply (C_ctor1 d ctor_ok gfuncs gvars Hctor1); assumption
                     |apply PE_ctor1; assumption].
    + apply sim_ret with (GVStruct (case_struct uname cname) []); [apply Teval_pure, PE_ctor0; assumption|constructor].
  - (* union match *)
    change (compile k (EMatchU e uname arms def)) with (GCall (GFunc [] [switch_u k e uname arms def]) []).
    apply sim_iife. exact (HMU _ _ _ _ _ _ _ k W E).
  - (* string match *)
    change (compile k (EMatchS e arms bx last)) with (GCall (GFunc [] [switch_s k e arms bx last]) []).
    apply sim_iife. exact (HMS _ _ _ _ _ _ _ k W E).
  - (* slice literal *)
    sstep. eapply sim_bind; [exact (IEs _ _ _ _ k Wi E)|intros vs gvs t1 Vs Ts].
    apply sim_ret with (GVSlice gvs); [|constructor; exact Vs].
    eapply TevalL; [exact Ts|apply pure_inv|apply G_slice|apply PE_slice].
  - (* interpolation *)
    sstep. destruct (interp_text sfuns senv parts) as [s|] eqn:I; [|apply sim_stuck].
    destruct (interp_sim _ _ _ _ E Wi I) as (gvs & ss & G & A & F).
    apply sim_ret with (GVStr s); [|constructor].
    cbn [compile]. eapply G_libcall; [eapply Gs_cons; [apply G_str|apply G]|].
    apply Gl_pure; [reflexivity|]. cbn [lib_pure gops asStr]. rewrite A, F. reflexivity.
  - (* block *)
    cbn [compile]. apply sim_iife. exact (HBE _ _ _ _ k W E).
Qed.

Lemma sim_steps n :
  SimE n /\ SimEs n /\ SimB n /\ SimA n /\ SimMU n /\ SimMS n /\ SimBE n.
Proof.
  induction n as [|n (IE & IEs & IB & IA & IMU & IMS & IBE)].
  { repeat split; intro; intros; apply sim_fuel. }
  pose proof (step_MU n IE IB) as HMU. pose proof (step_MS n IE IB) as HMS. pose proof (step_BE n IB) as HBE.
  exact (conj (step_E n IE IEs IB IA HMU HMS HBE) (conj (step_Es n IE IEs)
        (conj (step_B n IE IB IMU IMS IBE) (conj (step_A n IB IA) (conj HMU (conj HMS HBE)))))).
Qed.

End Sim.
