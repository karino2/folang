(** C17 — tinyfo, the bootstrap transpiler (tinyfo/ast.go, tinyfo/parser.go), on the same MiniFo / MiniGo.

    [compile_tiny]: tinyfo's lowering.  Construct by construct, tinyfo/ast.go emits Go of the same shape as
    fc/expr_to_go.fo, ir_factory.fo and stmt_to_go.fo:
      FunCall.ToGo / toGoPartialApply   = fcFullApplyGo / fcPartialApplyGo  (closure over _r0…, arguments inside)
      NewIfElseCall / NewIfOnlyCall     = newIfElseCall / newIfOnlyCall     (frt.IfElse / IfElseUnit / IfOnly over thunks)
      NewPipeCall                       = newPipeCall                       (frt.Pipe / frt.PipeUnit)
      NewBinOpCall on = <>, 'not'       = newEqNeq, newUnaryNotCall         (frt.OpEqual / OpNotEqual / OpNot)
      Block.ToGoReturn / ToGo, wrapFunc = buildReturn / blockToGo / lbToGo
      MatchExpr.ToGoReturn / ToGo       = umrToGoReturn / meToGo            (type switch, x := _vN.Value, default panic)
      RecordGen, TupleExpr, SliceExpr, FieldAccess, LetVarDef, UnionDef     = rgToGo, tupleToGo, sliceToGo, faToGo, lvdToGo, udfToGo
    and differs in exactly two places ([Compile.dialect], constructor [DTiny]):
      - LetDestVarDef.ToGo emits [frt.Destr] (fc: [frt.Destr2]);
      - MatchExpr.ToGoReturn calls UniqueTmpVarName for every match, and the counter is shared with the
        type-parameter names allocated while parsing and never reset, so the numbering of the [_vN] differs.
    Neither is a behavioural difference (frt.Destr is frt.Destr2; the temporaries are bound and used locally).

    [tiny_subset]: the constructs tinyfo's parser accepts (parser.go): no [fun] and no inner functions, no
    string match, no interpolation, no block expression, no [*] and no [/], pairs only, non-empty slice literals, field
    access only on a variable (or a chain x.a.b). *)
From Coq Require Import List ZArith String Ascii Bool.
From FoVerif Require Import Core.Common Core.MiniFo Core.MiniGo Core.Compile Core.WfCheck.
Import ListNotations.
Open Scope list_scope.

(** tinyfo: the counter has been advanced by the parser (NewBinOpCall: one [_T] per [=]/[<>]; NewPipeCall: two per [|>]) *)
Fixpoint tallocs (e:expr) : nat :=
  let fix tl (es:list expr) : nat :=
      match es with [] => 0 | e :: r => tallocs e + tl r end in
  let fix ta (arms:list (string * option var * block)) : nat :=
      match arms with [] => 0 | (_, _, b) :: r => tallocsb b + ta r end in
  let fix ts (arms:list (string * block)) : nat :=
      match arms with [] => 0 | (_, b) :: r => tallocsb b + ts r end in
  match e with
  | EInt _ | EStr _ | EBool _ | EUnit | EVar _ | EInterp _ => 0
  | EBin _ a b => tallocs a + tallocs b
  | EEq _ a b => 1 + tallocs a + tallocs b
  | ENot a => tallocs a
  | EIf c bt bf => tallocs c + tallocsb bt + tallocsb bf
  | EIfOnly c bt => tallocs c + tallocsb bt
  | ELam _ b => tallocsb b
  | ECall _ _ _ args | EExt _ args | ETuple args | ERecord _ _ _ args | ESlice args => tl args
  | EPipeVar a _ _ => 2 + tallocs a
  | EPipeCall a _ args _ | EPipeExt a _ args _ => 2 + tallocs a + tl args
  | EField a _ => tallocs a
  | ECtor _ _ None => 0
  | ECtor _ _ (Some a) => tallocs a
  | EMatchU a _ arms def => tallocs a + ta arms + match def with Some b => tallocsb b | None => 0 end
  | EMatchS a arms _ last => tallocs a + ts arms + tallocsb last
  | EBlock b => tallocsb b
  end
with tallocsb (b:block) : nat :=
  match b with
  | BLet _ e b' | BDestr _ e b' | BDo e b' => tallocs e + tallocsb b'
  | BRet e _ => tallocs e
  end.

Definition tiny_start (p:prog) : nat :=
  fold_right (fun f acc => tallocsb (snd (snd f)) + acc) 0 (p_funs p) + tallocsb (p_main p).

Definition compile_tiny (p:prog) : gprog := compile_prog_d DTiny (tiny_start p) p.

Inductive field_target : expr -> Prop :=
| FT_var x : field_target (EVar x)
| FT_field e f : field_target e -> field_target (EField e f).

Inductive tinye : expr -> Prop :=
| T_int z : tinye (EInt z)
| T_str s : tinye (EStr s)
| T_bool b : tinye (EBool b)
| T_unit : tinye EUnit
| T_var x : tinye (EVar x)
| T_bin op a b : op <> OMul -> op <> ODiv -> tinye a -> tinye b -> tinye (EBin op a b)
| T_eq neg a b : tinye a -> tinye b -> tinye (EEq neg a b)
| T_not a : tinye a -> tinye (ENot a)
| T_if c bt bf : tinye c -> tinyb bt -> tinyb bf -> tinye (EIf c bt bf)
| T_ifonly c bt : tinye c -> tinyb bt -> tinye (EIfOnly c bt)
| T_call f m u args : Forall tinye args -> tinye (ECall f m u args)
| T_ext fn args : Forall tinye args -> tinye (EExt fn args)                 (* a function of the program's package_info *)
| T_pipevar a f u : tinye a -> tinye (EPipeVar a f u)
| T_pipecall a f args u : tinye a -> Forall tinye args -> tinye (EPipeCall a f args u)
| T_pipeext a fn args u : tinye a -> Forall tinye args -> tinye (EPipeExt a fn args u)
| T_tuple es : List.length es = 2 -> Forall tinye es -> tinye (ETuple es)
| T_record name decl fields es : Forall tinye es -> tinye (ERecord name decl fields es)
| T_field e f : field_target e -> tinye (EField e f)
| T_ctor0 u c : tinye (ECtor u c None)
| T_ctor1 u c a : tinye a -> tinye (ECtor u c (Some a))
| T_matchu e u arms def :
    tinye e -> Forall (fun arm : string * option var * block => tinyb (snd arm)) arms ->
    (forall b, def = Some b -> tinyb b) -> tinye (EMatchU e u arms def)
| T_slice es : es <> [] -> Forall tinye es -> tinye (ESlice es)
with tinyb : block -> Prop :=
| TB_let x e b : tinye e -> tinyb b -> tinyb (BLet x e b)
| TB_destr xs e b : List.length xs = 2 -> tinye e -> tinyb b -> tinyb (BDestr xs e b)
| TB_do e b : tinye e -> tinyb b -> tinyb (BDo e b)
| TB_ret e u : tinye e -> tinyb (BRet e u).

Definition tiny_subset (p:prog) : Prop :=
  Forall (fun f : var * (list var * block) => tinyb (snd (snd f))) (p_funs p) /\ tinyb (p_main p).

(** ** decision procedure (fuelled: the AST has nested lists); sound for every fuel *)
Fixpoint field_target_b (n:nat) (e:expr) : bool :=
  match n with O => false | S n =>
  match e with EVar _ => true | EField e' _ => field_target_b n e' | _ => false end end.

Fixpoint tinye_b (n:nat) (e:expr) {struct n} : bool :=
  match n with O => false | S n =>
  match e with
  | EInt _ | EStr _ | EBool _ | EUnit | EVar _ => true
  | EBin op a b => match op with OMul | ODiv => false | _ => tinye_b n a && tinye_b n b end
  | EEq _ a b => tinye_b n a && tinye_b n b
  | ENot a => tinye_b n a
  | EIf c bt bf => tinye_b n c && tinyb_b n bt && tinyb_b n bf
  | EIfOnly c bt => tinye_b n c && tinyb_b n bt
  | ECall _ _ _ args | EExt _ args | ERecord _ _ _ args => forallb (tinye_b n) args
  | EPipeVar a _ _ => tinye_b n a
  | EPipeCall a _ args _ | EPipeExt a _ args _ => tinye_b n a && forallb (tinye_b n) args
  | ETuple es => Nat.eqb (List.length es) 2 && forallb (tinye_b n) es
  | EField e' _ => field_target_b n e'
  | ECtor _ _ None => true
  | ECtor _ _ (Some a) => tinye_b n a
  | EMatchU a _ arms def =>
      tinye_b n a && forallb (fun arm : string * option var * block => tinyb_b n (snd arm)) arms &&
      match def with Some b => tinyb_b n b | None => true end
  | ESlice es => match es with [] => false | _ => forallb (tinye_b n) es end
  | ELam _ _ | EMatchS _ _ _ _ | EInterp _ | EBlock _ => false
  end end
with tinyb_b (n:nat) (b:block) {struct n} : bool :=
  match n with O => false | S n =>
  match b with
  | BLet _ e b' => tinye_b n e && tinyb_b n b'
  | BDestr xs e b' => Nat.eqb (List.length xs) 2 && tinye_b n e && tinyb_b n b'
  | BDo e b' => tinye_b n e && tinyb_b n b'
  | BRet e _ => tinye_b n e
  end end.

Definition tiny_b (n:nat) (p:prog) : bool :=
  forallb (fun f : var * (list var * block) => tinyb_b n (snd (snd f))) (p_funs p) && tinyb_b n (p_main p).

Lemma field_target_b_ok n : forall e, field_target_b n e = true -> field_target e.
Proof.
  induction n as [|n IH]; intros e H; [discriminate|].
  destruct e; cbn in H; try discriminate; constructor; auto.
Qed.

Lemma tiny_sound n :
  (forall e, tinye_b n e = true -> tinye e) /\ (forall b, tinyb_b n b = true -> tinyb b).
Proof.
  induction n as [|n (IHe & IHb)]; [split; intros; discriminate|].
  pose proof (fun es => forallb_Forall _ _ es IHe) as IHes.
  split.
  - intros e H. destruct e; cbn [tinye_b] in H; try discriminate; try (destruct op; try discriminate);
      split_andb; try (constructor; auto; discriminate).
    + constructor; [apply Nat.eqb_eq; assumption|auto].
    + constructor. eapply field_target_b_ok; eassumption.
    + destruct arg; constructor; auto.
    + constructor; auto.
      * eapply forallb_Forall; [|eassumption]. exact (fun arm => IHb (snd arm)).
      * intros b ->. auto.
    + destruct es; [discriminate|]. constructor; [discriminate|auto].
  - intros b H. destruct b; cbn [tinyb_b] in H; split_andb; constructor; auto.
    apply Nat.eqb_eq; assumption.
Qed.

Theorem tiny_b_sound n p : tiny_b n p = true -> tiny_subset p.
Proof.
  unfold tiny_b, tiny_subset. intros H. split_andb. destruct (tiny_sound n) as (_ & Sb).
  split; [|apply Sb; assumption]. eapply forallb_Forall; [|eassumption]. exact (fun f => Sb (snd (snd f))).
Qed.
