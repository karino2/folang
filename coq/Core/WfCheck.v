(** C01 — a decision procedure for the hypotheses [wt] / [pap_args_pure] of the theorem, so that the
    oracle can tell the harness whether a generated program is inside the proved fragment
    ([C01 (fragment <prog>)]).  Fuelled (the AST has nested lists); sound for every fuel. *)
From Coq Require Import List ZArith String Ascii Bool.
From FoVerif Require Import Core.Common Core.MiniFo Core.SimDefs.
Import ListNotations.
Open Scope list_scope.

Fixpoint pure_b (n:nat) (e:expr) {struct n} : bool :=
  match n with O => false | S n =>
  match e with
  | EInt _ | EStr _ | EBool _ | EVar _ | ELam _ _ => true
  | ECall _ (S _) _ _ => true
  | EBin _ a b | EEq _ a b => pure_b n a && pure_b n b
  | ENot a | EField a _ => pure_b n a
  | ETuple es | ERecord _ _ _ es | ESlice es => forallb (pure_b n) es
  | ECtor _ _ None => true
  | ECtor _ _ (Some a) => pure_b n a
  | _ => false
  end end.

Definition user_b (x:var) : bool := negb (reserved x).
Definition two_or_three_b (n:nat) : bool := Nat.eqb n 2 || Nat.eqb n 3.

Fixpoint str_in (x:string) (l:list string) : bool :=
  match l with [] => false | y :: r => String.eqb x y || str_in x r end.
Fixpoint nodup_b (l:list string) : bool :=
  match l with [] => true | x :: r => negb (str_in x r) && nodup_b r end.

Definition fields_ok_b (written decl:list string) : bool :=
  nodup_b written && nodup_b decl && Nat.eqb (List.length written) (List.length decl) &&
  forallb (fun f => str_in f decl) written.

Definition ctor_declared_b (unions:list udecl) (u c:string) (p:bool) : bool :=
  existsb (fun d : udecl => String.eqb (fst d) u &&
                            existsb (fun cs : string * bool => String.eqb (fst cs) c && Bool.eqb (snd cs) p) (snd d)) unions.

Section Check.
Variable strict : bool.
Variable unions : list udecl.

Fixpoint wfe_b (n:nat) (e:expr) {struct n} : bool :=
  match n with O => false | S n =>
  match e with
  | EInt _ | EStr _ | EBool _ | EUnit => true
  | EVar x => user_b x
  | EBin _ a b | EEq _ a b => wfe_b n a && wfe_b n b
  | ENot a => wfe_b n a
  | EIf c bt bf => wfe_b n c && wfb_b n bt && wfb_b n bf && Bool.eqb (block_unit bt) (block_unit bf)
  | EIfOnly c bt => wfe_b n c && wfb_b n bt
  | ELam ps b => forallb user_b ps && wfb_b n b
  | ECall f O _ args => user_b f && forallb (wfe_b n) args
  | ECall f (S _) _ args => user_b f && forallb (wfe_b n) args && (negb strict || forallb (pure_b n) args)
  | EExt fn args => src_fn fn && forallb (wfe_b n) args
  | EPipeVar a f _ => wfe_b n a && user_b f
  | EPipeCall a f args _ => wfe_b n a && user_b f && forallb (wfe_b n) args
  | EPipeExt a fn args _ => wfe_b n a && src_fn fn && forallb (wfe_b n) args
  | ETuple es => forallb (wfe_b n) es && two_or_three_b (List.length es)
  | ERecord _ decl fields es => forallb (wfe_b n) es && fields_ok_b fields decl
  | EField a _ => wfe_b n a
  | ECtor u c None => ctor_declared_b unions u c false
  | ECtor u c (Some a) => ctor_declared_b unions u c true && wfe_b n a
  | EMatchU a _ arms def =>
      wfe_b n a &&
      forallb (fun arm : string * option var * block =>
                 match snd (fst arm) with Some x => user_b x | None => true end && wfb_b n (snd arm)) arms &&
      match def with Some b => wfb_b n b | None => true end
  | EMatchS a arms bx last =>
      wfe_b n a && forallb (fun arm : string * block => wfb_b n (snd arm)) arms &&
      match bx with Some x => user_b x | None => true end && wfb_b n last
  | ESlice es => forallb (wfe_b n) es
  | EInterp parts => forallb (fun p : string + var => match p with inr x => user_b x | inl _ => true end) parts
  | EBlock b => wfb_b n b
  end end
with wfb_b (n:nat) (b:block) {struct n} : bool :=
  match n with O => false | S n =>
  match b with
  | BLet x e b' => user_b x && wfe_b n e && wfb_b n b'
  | BDestr xs e b' => forallb user_b xs && two_or_three_b (List.length xs) && wfe_b n e && wfb_b n b'
  | BDo e b' => wfe_b n e && wfb_b n b'
  | BRet e _ => wfe_b n e
  end end.

Definition wfp_b (n:nat) (p:prog) : bool :=
  nodup_b (all_ctor_names (p_unions p)) &&
  forallb (fun d : var * (list var * block) =>
             user_b (fst d) && forallb user_b (fst (snd d)) && wfb_b n (snd (snd d))) (p_funs p) &&
  wfb_b n (p_main p).

End Check.

Lemma forallb_Forall {A} (f:A -> bool) (P:A -> Prop) l :
  (forall x, f x = true -> P x) -> forallb f l = true -> Forall P l.
Proof. intros H E. apply Forall_forall. intros x I. exact (H x (proj1 (forallb_forall f l) E x I)). Qed.

Ltac split_andb :=
  cbv beta in *; repeat match goal with H : _ && _ = true |- _ => apply andb_prop in H; destruct H end.

Lemma user_b_ok x : user_b x = true -> reserved x = false.
Proof. unfold user_b. destruct (reserved x); [discriminate|reflexivity]. Qed.

Lemma forallb_user ps : forallb user_b ps = true -> Forall (fun p => reserved p = false) ps.
Proof. apply forallb_Forall, user_b_ok. Qed.

Lemma opt_user_b_ok (bx:option var) :
  match bx with Some x => user_b x | None => true end = true ->
  match bx with Some x => reserved x = false | None => True end.
Proof. destruct bx; [apply user_b_ok|exact (fun _ => I)]. Qed.

Lemma two_or_three_b_ok n : two_or_three_b n = true -> two_or_three n.
Proof.
  unfold two_or_three_b, two_or_three. intros H. apply orb_true_iff in H.
  destruct H as [H|H]; apply Nat.eqb_eq in H; auto.
Qed.

Lemma pure_b_ok n : forall e, pure_b n e = true -> pure e.
Proof.
  induction n as [|n IH]; intros e H; [discriminate|].
  pose proof (fun es => forallb_Forall _ _ es IH) as IHs.
  destruct e; cbn [pure_b] in H; try discriminate; split_andb; try (constructor; auto; fail).
  - destruct missing; [discriminate|constructor].
  - destruct arg; constructor; auto.
Qed.

Lemma str_in_In x l : str_in x l = true <-> In x l.
Proof.
  induction l as [|y l IH]; cbn; [split; [discriminate|tauto]|].
  rewrite orb_true_iff, String.eqb_eq, IH. split; intros [E|H]; auto.
Qed.
Lemma nodup_b_ok l : nodup_b l = true -> NoDup l.
Proof.
  induction l as [|x l IH]; cbn; intros H; constructor; split_andb; [|auto].
  intros I. apply str_in_In in I. rewrite I in *. discriminate.
Qed.

Lemma fields_ok_b_ok w dcl : fields_ok_b w dcl = true -> fields_ok w dcl.
Proof.
  unfold fields_ok_b, fields_ok. intros H. split_andb. repeat split; auto using nodup_b_ok.
  - apply Nat.eqb_eq; assumption.
  - intros x; revert x. apply Forall_forall. eapply forallb_Forall; [|eassumption]. intros f; apply str_in_In.
Qed.

Lemma ctor_declared_b_ok us u c p : ctor_declared_b us u c p = true -> ctor_declared us u c p.
Proof.
  unfold ctor_declared_b, ctor_declared. intros H. apply existsb_exists in H.
  destruct H as ([u' cases] & Iu & H). cbn in H. apply andb_prop in H. destruct H as [Eu H].
  apply String.eqb_eq in Eu; subst u'. apply existsb_exists in H. destruct H as ([c' p'] & Ic & H). cbn in H.
  apply andb_prop in H. destruct H as [Ec Ep]. apply String.eqb_eq in Ec. apply Bool.eqb_prop in Ep. subst.
  exists cases; split; assumption.
Qed.

Create HintDb wf.
#[local] Hint Resolve user_b_ok forallb_user two_or_three_b_ok fields_ok_b_ok ctor_declared_b_ok
  Bool.eqb_prop : wf.

Lemma wf_sound strict us n :
  (forall e, wfe_b strict us n e = true -> wfe strict (ctor_declared us) e) /\
  (forall b, wfb_b strict us n b = true -> wfb strict (ctor_declared us) b).
Proof.
  induction n as [|n (IHe & IHb)]; [split; intros; discriminate|].
  pose proof (fun es => forallb_Forall _ _ es IHe) as IHes.
  split.
  - intros e H. destruct e; cbn [wfe_b] in H; split_andb; try (constructor; auto with wf; fail).
    + destruct missing; split_andb; constructor; auto with wf.
      intros ->. eapply forallb_Forall; [apply (pure_b_ok n)|assumption].
    + destruct arg; split_andb; constructor; auto with wf.
    + constructor; auto.
      * eapply forallb_Forall; [|eassumption]. intros arm Ha. split_andb. split; [apply opt_user_b_ok; assumption|auto].
      * intros b ->. auto.
    + constructor; auto.
      * eapply forallb_Forall; [|eassumption]. exact (fun arm => IHb (snd arm)).
      * apply opt_user_b_ok; assumption.
    + constructor. eapply forallb_Forall; [|eassumption]. intros [s|x]; [exact (fun _ => I)|apply user_b_ok].
  - intros b H. destruct b; cbn [wfb_b] in H; split_andb; constructor; auto with wf.
Qed.

Theorem wfp_b_sound strict n p : wfp_b strict (p_unions p) n p = true -> wfp strict p.
Proof.
  unfold wfp_b, wfp. intros H. split_andb.
  destruct (wf_sound strict (p_unions p) n) as (_ & Sb).
  split; [apply nodup_b_ok; assumption|]. split; [|apply Sb; assumption].
  eapply forallb_Forall; [|eassumption]. intros d Hd. split_andb. auto with wf.
Qed.
