(** C16: type-variable resolution with the path check terminates ([resolve_terminates]); it gives the
    diagnostic exactly when a variable of the type depends, in zero or more steps, on a variable that
    depends on itself ([resolve_cyclic_reachable]: only then; [resolve_cyclic_detected]: then always);
    on an acyclic resolver the result mentions only variables the resolver leaves open
    ([resolve_acyclic_ok]).

    [resolve_path] is unfolded in two places only: [var_cases] (a variable) and [node_cases]
    (anything else, through its [children]). *)
From Coq Require Import List Arith Bool Lia.
From FoVerif Require Import Core.Resolve.
Import ListNotations.

Lemma mem_In : forall v l, mem v l = true <-> In v l.
Proof.
  induction l as [|x l IH]; cbn [mem In]; [split; [discriminate|tauto]|].
  rewrite orb_true_iff, Nat.eqb_eq, IH. tauto.
Qed.

Lemma is_same_var_iff : forall rc v, is_same_var rc v = true <-> rc = TVar v.
Proof.
  intros rc v. destruct rc; cbn; try (split; discriminate).
  rewrite Nat.eqb_eq. split; congruence.
Qed.

Lemma depth_pos : forall t, 1 <= depth t.
Proof. destruct t; cbn; lia. Qed.

Lemma fold_max_ge : forall {A} (g : A -> nat) x l,
  In x l -> g x <= fold_right (fun e acc => Nat.max (g e) acc) 0 l.
Proof.
  induction l as [|a l IH]; intros H; [destruct H|].
  cbn [fold_right]. destruct H as [->|H]; [lia|]. specialize (IH H). lia.
Qed.

Lemma bound_entry : forall m v, bound m v -> In (v, lookup m v) m.
Proof.
  unfold bound. induction m as [|[k t] m IH]; intros v H; cbn [lookup] in *; [contradiction|].
  destruct (k =? v) eqn:E.
  - apply Nat.eqb_eq in E. subst. left. reflexivity.
  - right. apply IH. exact H.
Qed.

Lemma bound_in_keys : forall m v, bound m v -> In v (map fst m).
Proof. intros m v H. exact (in_map fst _ _ (bound_entry m v H)). Qed.

Lemma bound_depth_le : forall m v, bound m v -> depth (lookup m v) <= max_depth m.
Proof. intros m v H. exact (fold_max_ge (fun kt => depth (snd kt)) _ _ (bound_entry m v H)). Qed.

Lemma var_cases : forall f m path v,
  In v path /\ resolve_path (S f) m path (TVar v) = Cyclic \/
  ~ In v path /\
  (lookup m v = TVar v /\ resolve_path (S f) m path (TVar v) = Resolved (TVar v) \/
   bound m v /\ resolve_path (S f) m path (TVar v) = resolve_path f m (v :: path) (lookup m v)).
Proof.
  intros f m path v. cbn [resolve_path]. destruct (mem v path) eqn:Em.
  - left. split; [apply mem_In; exact Em|reflexivity].
  - right. split; [rewrite <- mem_In; congruence|].
    destruct (is_same_var (lookup m v) v) eqn:Es.
    + left. apply is_same_var_iff in Es. split; [exact Es|f_equal; exact Es].
    + right. split; [|reflexivity]. intros E. apply is_same_var_iff in E. congruence.
Qed.

Definition children (t : ty) : list ty :=
  match t with
  | TVar _ | TBase _ => []
  | TSlice e => [e]
  | TTuple ts | TFunc ts => ts
  end.

Lemma var_or_node : forall t, (exists v, t = TVar v) \/ (forall v, t <> TVar v).
Proof. destruct t; [left; eauto|right; discriminate..]. Qed.

Lemma occurs_node : forall w t,
  occurs w t <-> t = TVar w \/ exists e, In e (children t) /\ occurs w e.
Proof.
  intros w t. split.
  - destruct 1; [left; reflexivity|right; exists e; cbn [children In]; auto..].
  - intros [->|(e & He & Hw)]; [constructor|].
    destruct t; cbn [children] in He; try contradiction; [destruct He as [->|[]]|..];
      econstructor; eassumption.
Qed.

Lemma depth_child : forall e t, In e (children t) -> depth e < depth t.
Proof.
  destruct t; cbn [children depth]; intros H; try contradiction.
  - destruct H as [->|[]]. lia.
  - apply (fold_max_ge depth) in H. lia.
  - apply (fold_max_ge depth) in H. lia.
Qed.

Lemma Forall2_in_l {A B} {P : A -> B -> Prop} {l l' x} :
  Forall2 P l l' -> In x l -> exists y, In y l' /\ P x y.
Proof.
  induction 1 as [|a b l l' Hab _ IH]; [intros []|].
  intros [<-|Hx]; [exists b; split; [left; reflexivity|exact Hab]|].
  destruct (IH Hx) as (y & Hy & Hxy). exists y. split; [right; exact Hy|exact Hxy].
Qed.

Lemma Forall2_in_r {A B} {P : A -> B -> Prop} {l l' y} :
  Forall2 P l l' -> In y l' -> exists x, In x l /\ P x y.
Proof.
  induction 1 as [|a b l l' Hab _ IH]; [intros []|].
  intros [<-|Hy]; [exists a; split; [left; reflexivity|exact Hab]|].
  destruct (IH Hy) as (x & Hx & Hxy). exists x. split; [right; exact Hx|exact Hxy].
Qed.

(** slice.Map: all elements resolved, in order, or the first failure *)
Lemma map_res_cases : forall f ts,
  match map_res f ts with
  | MResolved ts' => Forall2 (fun e e' => f e = Resolved e') ts ts'
  | MCyclic => exists e, In e ts /\ f e = Cyclic
  | MOutOfFuel => exists e, In e ts /\ f e = ROutOfFuel
  end.
Proof.
  induction ts as [|a ts IH]; cbn [map_res]; [constructor|].
  destruct (f a) as [a'| |] eqn:Ea; [|exists a; split; [left; reflexivity|exact Ea]..].
  destruct (map_res f ts) as [ts'| |]; [constructor; assumption|..].
  all: destruct IH as (e & He & Hr); exists e; split; [right; exact He|exact Hr].
Qed.

Lemma node_cases : forall f m path t, (forall v, t <> TVar v) ->
  match resolve_path (S f) m path t with
  | Resolved t' => (forall v, t' <> TVar v) /\
                   Forall2 (fun e e' => resolve_path f m path e = Resolved e') (children t) (children t')
  | Cyclic => exists e, In e (children t) /\ resolve_path f m path e = Cyclic
  | ROutOfFuel => exists e, In e (children t) /\ resolve_path f m path e = ROutOfFuel
  end.
Proof.
  intros f m path t Hn.
  destruct t as [v|b|e|ts|ts]; cbn [resolve_path children]; [destruct (Hn v eq_refl)|..].
  - split; [discriminate|constructor].
  - destruct (resolve_path f m path e) as [e'| |] eqn:Ee; [|exists e; split; [left; reflexivity|exact Ee]..].
    split; [discriminate|]. constructor; [exact Ee|constructor].
  - pose proof (map_res_cases (resolve_path f m path) ts) as M.
    destruct (map_res (resolve_path f m path) ts); [split; [discriminate|exact M]|exact M..].
  - pose proof (map_res_cases (resolve_path f m path) ts) as M.
    destruct (map_res (resolve_path f m path) ts); [split; [discriminate|exact M]|exact M..].
Qed.

(** The path holds distinct keys of the resolver, so it is never longer than the resolver; every
    entry that is entered lengthens it and costs at most its depth + 1. *)
Lemma resolve_fuel_enough : forall fuel m path t,
  NoDup path -> incl path (map fst m) ->
  depth t + (List.length m - List.length path) * S (max_depth m) <= fuel ->
  resolve_path fuel m path t <> ROutOfFuel.
Proof.
  induction fuel as [|f IH]; intros m path t Hnd Hin Hf.
  { pose proof (depth_pos t). set (k := _ * _) in Hf. lia. }
  destruct (var_or_node t) as [[v ->]|Hn].
  - destruct (var_cases f m path v) as [[_ ->]|[Hni [[_ ->]|[Hb ->]]]]; try discriminate.
    assert (Hnd' : NoDup (v :: path)) by (constructor; assumption).
    assert (Hin' : incl (v :: path) (map fst m)) by (apply incl_cons; [apply bound_in_keys|]; assumption).
    pose proof (NoDup_incl_length Hnd' Hin') as Hl. rewrite map_length in Hl.
    pose proof (bound_depth_le m v Hb). apply IH; [exact Hnd'|exact Hin'|].
    cbn [List.length depth] in *.
    replace (List.length m - List.length path) with (S (List.length m - S (List.length path))) in Hf by lia.
    cbn [Nat.mul] in Hf. lia.
  - intros E. pose proof (node_cases f m path t Hn) as N. rewrite E in N.
    destruct N as (e & He & Ee). apply depth_child in He.
    revert Ee. apply IH; [exact Hnd|exact Hin|lia].
Qed.

(** C16: for every finite resolver and type, resolution with fuel
    depth + entries * (deepest entry + 1) ends with a resolved type or the diagnostic —
    never ROutOfFuel: the path strictly grows among the finitely many bound variables *)
Theorem resolve_terminates : forall m t,
  exists r, resolve m t = r /\ (r = Cyclic \/ exists t', r = Resolved t').
Proof.
  intros m t. eexists. split; [reflexivity|]. unfold resolve.
  pose proof (resolve_fuel_enough (resolve_fuel m t) m [] t (NoDup_nil _) (incl_nil_l _)) as H.
  destruct (resolve_path (resolve_fuel m t) m [] t) as [t'| |]; [right; eauto|left; reflexivity|].
  exfalso. apply H; [|reflexivity]. unfold resolve_fuel. cbn [List.length]. rewrite Nat.sub_0_r. lia.
Qed.

Lemma walk_snoc : forall m a b c, walk m a b -> edge m b c -> walk m a c.
Proof.
  intros m a b c H. induction H as [a|a x b He Hw IH]; intros Hc.
  - eapply walk_step; [exact Hc|apply walk_refl].
  - eapply walk_step; [exact He|apply IH; exact Hc].
Qed.

(** invariant, for every variable [w] of the type being resolved: [w] is reachable from a variable
    of the type [t0] the resolution started with, and every variable on the path depends on [w] in
    one or more steps; meeting a path variable again closes a cycle *)
Lemma cyclic_sound_path : forall fuel m t0 path t,
  (forall w, occurs w t ->
     (exists w0, occurs w0 t0 /\ walk m w0 w) /\
     forall p, In p path -> exists y, edge m p y /\ walk m y w) ->
  resolve_path fuel m path t = Cyclic ->
  exists w0 v, occurs w0 t0 /\ walk m w0 v /\ on_cycle m v.
Proof.
  induction fuel as [|f IH]; intros m t0 path t Hp H; [discriminate|].
  destruct (var_or_node t) as [[v ->]|Hn].
  - destruct (Hp v (OVar v)) as [(w0 & Hw0 & Hwv) Hpath].
    destruct (var_cases f m path v) as [[Hin _]|[_ [[_ E]|[Hb E]]]]; [|congruence|].
    + exists w0, v. split; [exact Hw0|]. split; [exact Hwv|exact (Hpath v Hin)].
    + rewrite E in H. apply IH with (t0 := t0) in H; [exact H|].
      intros w Hw. assert (He : edge m v w) by (split; assumption). split.
      * exists w0. split; [exact Hw0|exact (walk_snoc _ _ _ _ Hwv He)].
      * intros p [<-|Hin]; [exists w; split; [exact He|apply walk_refl]|].
        destruct (Hpath p Hin) as (y & Hy & Hyv).
        exists y. split; [exact Hy|exact (walk_snoc _ _ _ _ Hyv He)].
  - pose proof (node_cases f m path t Hn) as N. rewrite H in N. destruct N as (e & He & Ee).
    apply IH with (t0 := t0) in Ee; [exact Ee|].
    intros w Hw. apply Hp. apply occurs_node. right. eauto.
Qed.

(** the diagnostic is only given for a variable that depends on itself and that a variable of the
    type depends on (zero or more steps) *)
Theorem resolve_cyclic_reachable : forall m t,
  resolve m t = Cyclic -> exists w v, occurs w t /\ walk m w v /\ on_cycle m v.
Proof.
  intros m t H. eapply cyclic_sound_path; [|exact H].
  intros w Hw. split; [exists w; split; [exact Hw|apply walk_refl]|intros p []].
Qed.

Theorem resolve_cyclic_sound : forall m t, resolve m t = Cyclic -> exists v, on_cycle m v.
Proof. intros m t H. destruct (resolve_cyclic_reachable m t H) as (_ & v & _ & _ & Hv). eauto. Qed.

Lemma resolved_only_unbound : forall fuel m path t t',
  resolve_path fuel m path t = Resolved t' ->
  forall w, occurs w t' -> lookup m w = TVar w.
Proof.
  induction fuel as [|f IH]; intros m path t t' H w Hw; [discriminate|].
  destruct (var_or_node t) as [[v ->]|Hn].
  - destruct (var_cases f m path v) as [[_ E]|[_ [[Hu E]|[_ E]]]]; rewrite E in H.
    + discriminate.
    + inversion H; subst. inversion Hw; subst. exact Hu.
    + eapply IH; eauto.
  - pose proof (node_cases f m path t Hn) as N. rewrite H in N.
    apply occurs_node in Hw. destruct N as [Hn' N], Hw as [->|(e' & He' & Hw)]; [destruct (Hn' w eq_refl)|].
    destruct (Forall2_in_r N He') as (e & _ & Ee). eapply IH; eauto.
Qed.

(** C16: on an acyclic resolver the outcome is a resolved type, and that type mentions only
    variables the resolver leaves unresolved *)
Theorem resolve_acyclic_ok : forall m t,
  acyclic m ->
  exists t', resolve m t = Resolved t' /\ forall w, occurs w t' -> ~ bound m w.
Proof.
  intros m t Hac. destruct (resolve_terminates m t) as (r & Hr & [->|(t' & ->)]).
  - exfalso. destruct (resolve_cyclic_sound m t Hr) as (v & Hv). exact (Hac v Hv).
  - exists t'. split; [exact Hr|]. intros w Hw Hb. apply Hb.
    unfold resolve in Hr. eapply resolved_only_unbound; eauto.
Qed.

(** [w] gets resolved under path [p]: the resolution has entered [w] and come back. A resolved
    type has passed through every variable of the input, and through what those depend on, each
    time under a longer path that it was not on. *)
Definition resolved_under (m : resolver) (p : list nat) (w : nat) : Prop :=
  exists f r, resolve_path f m p (TVar w) = Resolved r.

Lemma resolved_sub {fuel} : forall {m path t t'},
  resolve_path fuel m path t = Resolved t' -> forall w, occurs w t -> resolved_under m path w.
Proof.
  induction fuel as [|f IH]; intros m path t t' H w Hw; [discriminate|].
  destruct (var_or_node t) as [[v ->]|Hn].
  - inversion Hw; subst. exists (S f), t'. exact H.
  - apply occurs_node in Hw. destruct Hw as [->|(e & He & Hw)]; [destruct (Hn w eq_refl)|].
    pose proof (node_cases f m path t Hn) as N. rewrite H in N.
    destruct N as [_ N]. destruct (Forall2_in_l N He) as (e' & _ & Ee). eapply IH; eauto.
Qed.

Lemma resolved_under_notin {m p w} : resolved_under m p w -> ~ In w p.
Proof.
  intros (f & r & H). destruct f as [|f]; [discriminate|].
  destruct (var_cases f m p w) as [[_ E]|[Hni _]]; [congruence|exact Hni].
Qed.

Lemma resolved_under_step {m p w x} :
  resolved_under m p w -> edge m w x -> resolved_under m (w :: p) x.
Proof.
  intros (f & r & H) [Hb Ho]. destruct f as [|f]; [discriminate|].
  destruct (var_cases f m p w) as [[_ E]|[_ [[E _]|[_ E]]]]; [congruence|destruct (Hb E)|].
  rewrite E in H. exact (resolved_sub H x Ho).
Qed.

Lemma resolved_under_walk : forall m a b, walk m a b ->
  forall p, resolved_under m p a -> exists p', resolved_under m p' b /\ incl p p'.
Proof.
  intros m a b H. induction H as [a|a x b He Hw IH]; intros p HR.
  - exists p. split; [exact HR|apply incl_refl].
  - destruct (IH (a :: p) (resolved_under_step HR He)) as (p' & HR' & Hincl).
    exists p'. split; [exact HR'|]. intros z Hz. apply Hincl. right. exact Hz.
Qed.

Lemma resolved_no_reachable_cycle {fuel m path t t'} :
  resolve_path fuel m path t = Resolved t' ->
  forall w v, occurs w t -> walk m w v -> ~ on_cycle m v.
Proof.
  intros H w v Hw Hwalk (y & Hvy & Hyv).
  pose proof (resolved_sub H w Hw) as HR.
  destruct (resolved_under_walk m w v Hwalk path HR) as (p & HRv & _).
  pose proof (resolved_under_step HRv Hvy) as HRy.
  destruct (resolved_under_walk m y v Hyv (v :: p) HRy) as (p' & HRv' & Hincl).
  apply (resolved_under_notin HRv'). apply Hincl. left. reflexivity.
Qed.

(** C16: if a variable reachable from the type depends on itself the outcome is the diagnostic
    (not divergence, not a wrong type) *)
Theorem resolve_cyclic_detected : forall m t w v,
  occurs w t -> walk m w v -> on_cycle m v -> resolve m t = Cyclic.
Proof.
  intros m t w v Hw Hwalk Hcyc.
  destruct (resolve_terminates m t) as (r & Hr & [->|(t' & ->)]); [exact Hr|].
  exfalso. unfold resolve in Hr.
  exact (resolved_no_reachable_cycle Hr w v Hw Hwalk Hcyc).
Qed.

(** T0 := func(T0) T1   (what `let f x = x x` produces) *)
Definition self_applied : resolver := [(0, TFunc [TVar 0; TVar 1])].

Lemma resolve_old_self_applied : forall fuel,
  resolve_old fuel self_applied (TVar 0) = ROutOfFuel /\
  resolve_old fuel self_applied (TFunc [TVar 0; TVar 1]) = ROutOfFuel.
Proof.
  induction fuel as [|f [IH1 IH2]]; [split; reflexivity|]. split.
  - cbn [resolve_old]. replace (lookup self_applied 0) with (TFunc [TVar 0; TVar 1]) by reflexivity.
    cbn [is_same_var]. exact IH2.
  - cbn [resolve_old map_res]. rewrite IH1. reflexivity.
Qed.

(** before commit 9e9e4ad (no path check) the resolution of a self-applied function's type
    exhausts every amount of fuel: unbounded recursion, in Go a fatal stack overflow *)
Theorem resolve_old_refuted :
  exists m t, forall fuel, resolve_old fuel m t = ROutOfFuel.
Proof. exists self_applied, (TVar 0). intros fuel. apply resolve_old_self_applied. Qed.

Example resolve_now_self_applied : resolve self_applied (TVar 0) = Cyclic.
Proof. reflexivity. Qed.
