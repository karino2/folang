(** C01 — more fuel never changes a completed run (both evaluators), so "the output of the program" is
    well defined and independent of the fuel at which it is observed. *)
From Coq Require Import List ZArith String Ascii Bool Lia.
From FoVerif Require Import Core.Common Core.Lib Core.MiniFo Core.MiniGo.
Import ListNotations.
Open Scope list_scope.

(** [le_res r1 r2]: whatever [r1] completes with, [r2] completes with.  Both evaluators are built from
    [rbind] and from [match]es on data, and [le_res] is preserved by both, so "more fuel" goes through
    the interpreter text once: no case ever looks at how a sub-evaluation came out. *)
Definition le_res {A} (r1 r2 : res A) : Prop := forall v t, r1 = Done v t -> r2 = Done v t.

Lemma le_refl {A} (r : res A) : le_res r r.
Proof. intros v t H; exact H. Qed.

Lemma le_bind {A B} (r1 r2 : res A) (k1 k2 : A -> trace -> res B) :
  le_res r1 r2 -> (forall a t, le_res (k1 a t) (k2 a t)) -> le_res (rbind r1 k1) (rbind r2 k2).
Proof.
  intros H K v t. destruct r1 as [a t1| |]; cbn [rbind]; try discriminate.
  rewrite (H a t1 eq_refl). apply K.
Qed.

(* reduces [le_res l r], where [r] is [l] with some sub-evaluations replaced by others, to the pairs of
   sub-evaluations that differ: splits binds, case-splits on scrutinees that are data, and closes
   what is equal or related by a hypothesis *)
Ltac mono :=
  repeat first
    [ apply le_refl
    | solve [auto]
    | apply le_bind; [|intros ? ?]
    | match goal with |- le_res (match ?x with _ => _ end) _ => destruct x end ].

Section LibMono.
Context {V:Type} (ops:vops V).
Variables app1 app2 : V -> list V -> trace -> res V.
Hypothesis Happ : forall f vs t, le_res (app1 f vs t) (app2 f vs t).

Lemma map_cb_mono f l : forall t, le_res (map_cb app1 f l t) (map_cb app2 f l t).
Proof. induction l; intros t; cbn [map_cb]; mono. Qed.
Lemma mapi_cb_mono f l : forall i t, le_res (mapi_cb ops app1 f i l t) (mapi_cb ops app2 f i l t).
Proof. induction l; intros i t; cbn [mapi_cb]; mono. Qed.
Lemma filter_cb_mono f l : forall t, le_res (filter_cb ops app1 f l t) (filter_cb ops app2 f l t).
Proof. induction l; intros t; cbn [filter_cb]; mono. Qed.
Lemma iter_cb_mono f l : forall t, le_res (iter_cb ops app1 f l t) (iter_cb ops app2 f l t).
Proof. induction l; intros t; cbn [iter_cb]; mono. Qed.
Lemma fold_cb_mono f l : forall s t, le_res (fold_cb app1 f s l t) (fold_cb app2 f s l t).
Proof. induction l; intros s t; cbn [fold_cb]; mono. Qed.
Lemma forall_cb_mono f l : forall t, le_res (forall_cb ops app1 f l t) (forall_cb ops app2 f l t).
Proof. induction l; intros t; cbn [forall_cb]; mono. Qed.
Lemma forany_cb_mono f l : forall t, le_res (forany_cb ops app1 f l t) (forany_cb ops app2 f l t).
Proof. induction l; intros t; cbn [forany_cb]; mono. Qed.

Lemma lib_sem_mono fn vs t : le_res (lib_sem ops app1 fn vs t) (lib_sem ops app2 fn vs t).
Proof.
  destruct fn; try apply le_refl; cbn [lib_sem]; mono;
    first [apply map_cb_mono | apply mapi_cb_mono | apply filter_cb_mono | apply iter_cb_mono
          | apply fold_cb_mono | apply forall_cb_mono | apply forany_cb_mono].
Qed.

End LibMono.

Section GoMono.
Variable funcs : gfundefs.
Variable vars : gvardefs.
Notation geval := (geval funcs vars).
Notation gevals := (gevals funcs vars).
Notation gexec := (gexec funcs vars).
Notation gapply := (gapply funcs vars).

Definition GoMono (m m':nat) : Prop :=
  (forall env e t, le_res (geval m env e t) (geval m' env e t)) /\
  (forall env es t, le_res (gevals m env es t) (gevals m' env es t)) /\
  (forall env ss t, le_res (gexec m env ss t) (gexec m' env ss t)) /\
  (forall f vs t, le_res (gapply m f vs t) (gapply m' f vs t)).

Lemma go_mono_step m m' : GoMono m m' -> GoMono (S m) (S m').
Proof.
  intros (IHe & IHs & IHx & IHa). repeat apply conj.
  - intros env e t. destruct e; cbn [MiniGo.geval]; mono; apply lib_sem_mono, IHa.
  - intros env es t. destruct es; cbn [MiniGo.gevals]; mono.
  - intros env ss t. destruct ss as [|s ss]; cbn [MiniGo.gexec]; mono.
  - intros f vs t. destruct f; cbn [MiniGo.gapply]; mono; apply lib_sem_mono, IHa.
Qed.

Lemma go_mono m : forall m', m <= m' -> GoMono m m'.
Proof.
  induction m as [|m IH]; intros m' L.
  - repeat apply conj; intros; discriminate.
  - destruct m' as [|m']; [lia|]. apply go_mono_step, IH. lia.
Qed.

End GoMono.

Theorem run_go_mono m m' p out : m <= m' -> run_go m p = ODone out -> run_go m' p = ODone out.
Proof.
  unfold run_go. intros L H.
  destruct (gapply (g_funcs p) (g_vars p) m (GVClo [] [] (g_main p)) [] []) as [v t| |] eqn:E; try discriminate.
  destruct (go_mono (g_funcs p) (g_vars p) m m' L) as (_ & _ & _ & Ha). rewrite (Ha _ _ _ _ _ E). exact H.
Qed.

Section FoMono.
Variable funs : fundefs.
Notation eval := (eval funs).
Notation evals := (evals funs).
Notation eval_block := (eval_block funs).
Notation apply := (apply funs).

Definition FoMono (m m':nat) : Prop :=
  (forall env e t, le_res (eval m env e t) (eval m' env e t)) /\
  (forall env es t, le_res (evals m env es t) (evals m' env es t)) /\
  (forall env b t, le_res (eval_block m env b t) (eval_block m' env b t)) /\
  (forall f vs t, le_res (apply m f vs t) (apply m' f vs t)).

Lemma fo_mono_step m m' : FoMono m m' -> FoMono (S m) (S m').
Proof.
  intros (IHe & IHs & IHb & IHa). repeat apply conj.
  - intros env e t. destruct e; cbn [MiniFo.eval]; mono; apply lib_sem_mono, IHa.
  - intros env es t. destruct es; cbn [MiniFo.evals]; mono.
  - intros env b t. destruct b; cbn [MiniFo.eval_block]; mono.
  - intros f vs t. destruct f; cbn [MiniFo.apply]; mono.
Qed.

Lemma fo_mono m : forall m', m <= m' -> FoMono m m'.
Proof.
  induction m as [|m IH]; intros m' L.
  - repeat apply conj; intros; discriminate.
  - destruct m' as [|m']; [lia|]. apply fo_mono_step, IH. lia.
Qed.

End FoMono.

Theorem run_src_mono m m' p out : m <= m' -> run_src m p = ODone out -> run_src m' p = ODone out.
Proof.
  unfold run_src. intros L H.
  destruct (eval_block (p_funs p) m [] (p_main p) []) as [v t| |] eqn:E; try discriminate.
  destruct (fo_mono (p_funs p) m m' L) as (_ & _ & Hb & _). rewrite (Hb _ _ _ _ _ E). exact H.
Qed.
