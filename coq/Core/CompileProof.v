(** C01 — correctness of the lowering on whole programs. *)
From Coq Require Import List ZArith String Ascii Bool Lia.
From FoVerif Require Import Core.Common Core.CommonProofs Core.MiniFo Core.MiniGo Core.Compile
  Core.GoRules Core.SimDefs Core.SimLemmas Core.EqSim Core.Sim.
Import ListNotations.
Open Scope list_scope.

Lemma lookup_notin {A} x (l:list (var * A)) : ~ In x (map fst l) -> lookup x l = None.
Proof.
  induction l as [|[y v] l IH]; intros N; cbn; [reflexivity|].
  destruct (String.eqb x y) eqn:E.
  - apply String.eqb_eq in E; subst. exfalso; apply N; left; reflexivity.
  - apply IH. intros I; apply N; right; exact I.
Qed.

Lemma lookup_in {A} x (l:list (var * A)) v : lookup x l = Some v -> In (x, v) l.
Proof.
  induction l as [|[y w] l IH]; cbn; intros L; [discriminate|].
  destruct (String.eqb x y) eqn:E; [apply String.eqb_eq in E; inversion L; subst; left; reflexivity|right; auto].
Qed.

(* no condition on the other keys: the generated bodies are determined by the generated names *)
Lemma lookup_unique {A} x (v:A) l : In (x, v) l -> (forall w, In (x, w) l -> w = v) -> lookup x l = Some v.
Proof.
  induction l as [|[y w] l IH]; cbn; intros I U; [destruct I|].
  destruct (String.eqb x y) eqn:E.
  - apply String.eqb_eq in E; subst y. rewrite (U w); auto.
  - apply IH; [|auto]. destruct I as [[= -> ->]|I]; [rewrite String.eqb_refl in E; discriminate E|exact I].
Qed.

Lemma lookup_app {A} x (l1 l2:list (var * A)) :
  lookup x (l1 ++ l2) = match lookup x l1 with Some v => Some v | None => lookup x l2 end.
Proof. induction l1 as [|[y v] l1 IH]; cbn; [reflexivity|]. destruct (String.eqb x y); auto. Qed.

Lemma NoDup_map_inj {A B} (f:A -> B) l a b : NoDup (map f l) -> In a l -> In b l -> f a = f b -> a = b.
Proof.
  induction l as [|x l IH]; cbn; intros N Ia Ib E; [destruct Ia|]. inversion N as [|? ? Nx Nl]; subst.
  destruct Ia as [->|Ia], Ib as [->|Ib]; auto; exfalso; apply Nx; [rewrite E|rewrite <- E]; apply in_map; assumption.
Qed.

Lemma ctor_name_case_struct u c u' c' : ctor_name u c = ctor_name u' c' -> case_struct u c = case_struct u' c'.
Proof. intros [= E]. exact E. Qed.

Lemma in_ctor_funcs x b us : In (x, b) (flat_map ctor_funcs_of us) <->
  exists u cases c, In (u, cases) us /\ In (c, true) cases /\ x = ctor_name u c /\ b = ctor_func_body u c.
Proof.
  rewrite in_flat_map. split.
  - intros ([u cases] & Iu & I). apply in_flat_map in I. destruct I as ([c [|]] & Ic & I); cbn [snd fst In] in I; [|destruct I].
    destruct I as [[= <- <-]|[]]. exists u, cases, c. auto.
  - intros (u & cases & c & Iu & Ic & -> & ->). exists (u, cases); split; [exact Iu|].
    apply in_flat_map. exists (c, true); split; [exact Ic|left; reflexivity].
Qed.
Lemma in_ctor_vars x e us : In (x, e) (flat_map ctor_vars_of us) <->
  exists u cases c, In (u, cases) us /\ In (c, false) cases /\ x = ctor_name u c /\ e = GStructLit (case_struct u c) [] [].
Proof.
  rewrite in_flat_map. split.
  - intros ([u cases] & Iu & I). apply in_flat_map in I. destruct I as ([c [|]] & Ic & I); cbn [snd fst In] in I; [destruct I|].
    destruct I as [[= <- <-]|[]]. exists u, cases, c. auto.
  - intros (u & cases & c & Iu & Ic & -> & ->). exists (u, cases); split; [exact Iu|].
    apply in_flat_map. exists (c, false); split; [exact Ic|left; reflexivity].
Qed.

(** the declared cases of all unions, each with its union; [all_ctor_names] names them in this order *)
Definition all_cases (us:list udecl) : list (string * (string * bool)) :=
  flat_map (fun u : udecl => map (pair (fst u)) (snd u)) us.
Definition case_ctor (k:string * (string * bool)) : string := ctor_name (fst k) (fst (snd k)).

Lemma all_ctor_names_cases us : all_ctor_names us = map case_ctor (all_cases us).
Proof.
  unfold all_ctor_names, all_cases. induction us as [|u us IH]; cbn [flat_map map]; [|rewrite map_app, map_map, IH]; reflexivity.
Qed.
Lemma in_all_cases us u cases c p : In (u, cases) us -> In (c, p) cases -> In (u, (c, p)) (all_cases us).
Proof. intros Iu Ic. apply in_flat_map. exists (u, cases); split; [exact Iu|]. apply (in_map (pair u)), Ic. Qed.

Lemma all_vars_names us : incl (map fst (flat_map ctor_vars_of us)) (all_ctor_names us).
Proof.
  intros x I. apply in_map_iff in I. destruct I as ([y e] & <- & I).
  apply in_ctor_vars in I. destruct I as (u & cases & c & Iu & Ic & -> & _).
  rewrite all_ctor_names_cases. exact (in_map case_ctor _ _ (in_all_cases _ _ _ _ _ Iu Ic)).
Qed.

Lemma ctor_funcs_ctor_like us x : In x (map fst (flat_map ctor_funcs_of us)) -> ctor_like x = true.
Proof.
  intros I. apply in_map_iff in I. destruct I as ([y b] & <- & I).
  apply in_ctor_funcs in I. destruct I as (u & _ & c & _ & _ & -> & _). apply ctor_name_like.
Qed.

(* distinct generated names: a case is declared once, so with or without a payload, not both *)
Lemma ctor_var_not_func us u cases c :
  NoDup (all_ctor_names us) -> In (u, cases) us -> In (c, false) cases ->
  ~ In (ctor_name u c) (map fst (flat_map ctor_funcs_of us)).
Proof.
  intros N Iu Ic I. apply in_map_iff in I. destruct I as ([y b] & E & I). cbn [fst] in E; subst y.
  apply in_ctor_funcs in I. destruct I as (u' & cases' & c' & Iu' & Ic' & E & _).
  rewrite all_ctor_names_cases in N.
  discriminate (NoDup_map_inj case_ctor _ _ _ N (in_all_cases _ _ _ _ _ Iu Ic) (in_all_cases _ _ _ _ _ Iu' Ic') E).
Qed.

Lemma compile_funs_lookup d : forall fs k f ps b,
  lookup f fs = Some (ps, b) -> exists k', lookup f (compile_funs d k fs) = Some (ps, compile_block d k' b).
Proof.
  induction fs as [|[g [qs c]] fs IH]; intros k f ps b L; cbn in L; [discriminate|].
  cbn. destruct (String.eqb f g).
  - inversion L; subst. eauto.
  - apply IH; exact L.
Qed.
Lemma compile_funs_names d : forall fs k, map fst (compile_funs d k fs) = map fst fs.
Proof. induction fs as [|[g [qs c]] fs IH]; intros k; cbn; [reflexivity|]. f_equal; apply IH. Qed.

Section Prog.
Variable d : dialect.
Variable start : nat.      (* value of the temporary counter when emission begins *)
Variable p : prog.
Hypothesis Hp : pap_args_pure p.

Definition ok := ctor_declared (p_unions p).
Definition gfuncs := g_funcs (compile_prog_d d start p).
Definition gvars := g_vars (compile_prog_d d start p).

Lemma prog_funs : funs_lowered d ok (p_funs p) gfuncs.
Proof.
  destruct Hp as (Nd & Wf & Wm). intros f ps b L.
  pose proof (lookup_in _ _ _ L) as I. rewrite Forall_forall in Wf.
  destruct (Wf _ I) as (Rf & Rps & Wb). cbn in Rf, Rps, Wb.
  destruct (compile_funs_lookup d _ start _ _ _ L) as (k & Lk). exists k. repeat split; auto.
  unfold gfuncs, compile_prog_d; cbn [g_funcs]. rewrite lookup_app.
  rewrite lookup_notin; [exact Lk|].
  intros I2. apply ctor_funcs_ctor_like in I2. destruct (orb_false_elim _ _ Rf). congruence.
Qed.

Lemma prog_ctor1 : ctor1_lowered ok gfuncs.
Proof.
  intros u c (cases & Iu & Ic). unfold gfuncs, compile_prog_d; cbn [g_funcs]. rewrite lookup_app.
  rewrite (lookup_unique _ (ctor_func_body u c) (flat_map ctor_funcs_of (p_unions p))); [reflexivity| |].
  - apply in_ctor_funcs. eauto 8.
  - intros w I. apply in_ctor_funcs in I. destruct I as (u' & _ & c' & _ & _ & E & ->).
    unfold ctor_func_body. rewrite (ctor_name_case_struct _ _ _ _ E). reflexivity.
Qed.

Lemma prog_ctor0 : ctor0_lowered ok gfuncs gvars.
Proof.
  destruct Hp as (Nd & Wf & Wm). intros u c (cases & Iu & Ic). split.
  - unfold gfuncs, compile_prog_d; cbn [g_funcs]. rewrite lookup_app.
    rewrite (lookup_notin _ _ (ctor_var_not_func _ _ _ _ Nd Iu Ic)). apply lookup_notin. rewrite compile_funs_names.
    intros I. apply in_map_iff in I. destruct I as ([g dd] & Eg & I). cbn [fst] in Eg; subst g.
    rewrite Forall_forall in Wf. destruct (Wf _ I) as (Rf & _). cbn [fst] in Rf.
    destruct (orb_false_elim _ _ Rf) as (_ & C). rewrite ctor_name_like in C. discriminate.
  - apply lookup_unique; [apply in_ctor_vars; eauto 8|].
    intros w I. apply in_ctor_vars in I. destruct I as (u' & _ & c' & _ & _ & E & ->).
    rewrite (ctor_name_case_struct _ _ _ _ E). reflexivity.
Qed.

Definition prog_sims (n:nat) := sim_steps d ok (p_funs p) gfuncs gvars prog_funs prog_ctor1 prog_ctor0 n.

Lemma compile_correct_eventually_d n out :
  run_src n p = ODone out -> exists m0, forall m, m0 <= m -> run_go m (compile_prog_d d start p) = ODone out.
Proof.
  intros R. unfold run_src in R.
  destruct (eval_block (p_funs p) n [] (p_main p) []) as [v t| |] eqn:Ev; try discriminate.
  inversion R; subst.
  destruct Hp as (Nd & Wf & Wm).
  destruct (prog_sims n) as (_ & _ & IB & _).
  destruct (IB [] [] (p_main p) [] (start + nvfuns d (p_funs p)) Wm (erel_nil d ok gfuncs) v t Ev) as (o & (m & Hm) & _).
  exists (S m). intros m1 Hle. destruct m1 as [|m1]; [lia|].
  unfold run_go. cbn [MiniGo.gapply bind].
  change (g_funcs (compile_prog_d d start p)) with gfuncs. change (g_vars (compile_prog_d d start p)) with gvars.
  change (g_main (compile_prog_d d start p)) with (compile_block d (start + nvfuns d (p_funs p)) (p_main p)).
  rewrite (Hm m1) by lia. reflexivity.
Qed.

Notation wfe' := (wfe true ok).
Notation vrel' := (vrel d ok gfuncs).
Notation erel' := (erel d ok gfuncs).
Notation Geval' := (Geval gfuncs gvars).
Notation Gevals' := (Gevals gfuncs gvars).

(** *** the behaviours the property names, as instances of the simulation *)

(** only the taken branch of an [if] runs: whatever the other branch is (it may print, loop or be stuck),
    the emitted [frt.IfElse(c, func…, func…)] produces the condition's effects followed by the taken branch's *)
Lemma untaken_branch_silent_d n senv genv c bt bf t (cv:bool) t1 v t2 k :
  wfe' (EIf c bt bf) -> erel' senv genv ->
  eval (p_funs p) n senv c t = Done (VBool cv) t1 ->
  eval_block (p_funs p) n senv (if cv then bt else bf) t1 = Done v t2 ->
  exists gv, Geval' genv (compile d k (EIf c bt bf)) t gv t2 /\ vrel' v gv.
Proof.
  intros W E Hc Hb. destruct (prog_sims (S n)) as (IE & _).
  destruct (IE senv genv (EIf c bt bf) t k W E v t2) as (gv & (G & _) & V); [|eauto].
  cbn [eval]. rewrite Hc. cbn [rbind]. destruct cv; exact Hb.
Qed.

Lemma short_circuit_d n senv genv a b t t1 k (is_and:bool) :
  wfe' (EBin (if is_and then OAnd else OOr) a b) -> erel' senv genv ->
  eval (p_funs p) n senv a t = Done (VBool (negb is_and)) t1 ->
  Geval' genv (compile d k (EBin (if is_and then OAnd else OOr) a b)) t (GVBool (negb is_and)) t1.
Proof.
  intros W E Ha. destruct (prog_sims (S n)) as (IE & _).
  destruct (IE senv genv (EBin (if is_and then OAnd else OOr) a b) t k W E (VBool (negb is_and)) t1) as (gv & (G & _) & V).
  { destruct is_and; cbn [eval negb]; rewrite Ha; reflexivity. }
  apply vrel_inv in V. subst gv. exact G.
Qed.

Lemma match_dispatches_to_constructor_d n senv genv e u arms def t c payload t1 bx b v t2 k :
  wfe' (EMatchU e u arms def) -> erel' senv genv ->
  eval (p_funs p) n senv e t = Done (VUnion u c payload) t1 ->
  find_arm c arms = Some (bx, b) ->
  eval_block (p_funs p) n
    (match bx, payload with Some x, Some pv => (x, pv) :: senv | _, _ => senv end) b t1 = Done v t2 ->
  (bx <> None -> payload <> None) ->
  exists gv, Geval' genv (compile d k (EMatchU e u arms def)) t gv t2 /\ vrel' v gv.
Proof.
  intros W E He Fa Hb Hpay. destruct (prog_sims (S n)) as (IE & _).
  destruct (IE senv genv (EMatchU e u arms def) t k W E v t2) as (gv & (G & _) & V); [|eauto].
  cbn [eval]. rewrite He. cbn [rbind]. rewrite String.eqb_refl, Fa.
  destruct bx as [x|]; [|exact Hb].
  destruct payload as [pv|]; [exact Hb|]. exfalso. apply Hpay; [discriminate|reflexivity].
Qed.

(** operands, arguments and components are evaluated left to right: the emitted argument list produces the
    trace of the source's left-to-right evaluation *)
Lemma effects_in_source_order_d n senv genv es t vs t' k :
  Forall wfe' es -> erel' senv genv ->
  evals (p_funs p) n senv es t = Done vs t' ->
  exists gvs, Gevals' genv (compile_list d k es) t gvs t' /\ Forall2 vrel' vs gvs.
Proof.
  intros W E H. destruct (prog_sims n) as (_ & IEs & _).
  destruct (IEs senv genv es t k W E vs t' H) as (gvs & (G & _) & Vs).
  exists gvs; split; [exact (Gs_close _ _ _ _ _ _ _ G)|exact Vs].
Qed.

End Prog.

Definition fc_gfuncs (p:prog) := gfuncs DFc 0 p.
Definition fc_gvars (p:prog) := gvars DFc 0 p.

(** "partial": for completed source runs, and under [pap_args_pure]; [wt p] is not used ([pap_args_pure] is
    [wfp true], the conditions of [wt] and purity) *)
Theorem compile_correct_partial : forall p n out,
  wt p -> pap_args_pure p ->
  run_src n p = ODone out -> exists m, run_go m (compile_prog p) = ODone out.
Proof.
  intros p n out _ Hp R. destruct (compile_correct_eventually_d DFc 0 p Hp n out R) as (m0 & H).
  exists m0. apply H. apply le_n.
Qed.
