(** C01 — the library functions preserve the value relation (forward simulation), given that
    applying related functions to related arguments does.

    Both models run the same text (Core/Lib.v), each over its own values, and the observers [asInt] … [asTuple]
    respect [vrel]: a library function is related to itself (parametricity). *)
From Coq Require Import List ZArith String Ascii Bool Lia.
From FoVerif Require Import Core.Common Core.CommonProofs Core.Lib Core.MiniFo Core.MiniGo Core.Compile
  Core.GoRules Core.SimDefs Core.SimLemmas.
Import ListNotations.
Open Scope list_scope.

Lemma format1_unfold f u sub :
  format1 f u sub =
  match f with
  | EmptyString => if u then Some EmptyString else None
  | String a f' =>
      if Ascii.eqb a "%" then
        match f' with
        | EmptyString => None
        | String c r =>
            if Ascii.eqb c "%" then option_map (String "%") (format1 r u sub)
            else if u then None
            else match sub c with
                 | Some s => option_map (String.append s) (format1 r true sub)
                 | None => None
                 end
        end
      else option_map (String a) (format1 f' u sub)
  end.
Proof. destruct f as [|a f']; [reflexivity|exact (match_percent _ _ a)]. Qed.

(* [format1] looks two characters ahead: induction on a bound of the length *)
Lemma format1_ext sub1 sub2 : (forall c, sub1 c = sub2 c) -> forall f u, format1 f u sub1 = format1 f u sub2.
Proof.
  intros Hs f. assert (Hle : String.length f <= String.length f) by lia.
  revert Hle. generalize (String.length f) at 2. intros n; revert f.
  induction n as [|n IH]; intros f Hle u; rewrite (format1_unfold f u sub1), (format1_unfold f u sub2);
    destruct f as [|a [|c r]]; cbn in Hle; try lia; try reflexivity.
  rewrite Hs, !(IH r), (IH (String c r)) by (cbn; lia). reflexivity.
Qed.

Definition orel {A B} (R:A -> B -> Prop) (o:option A) (go:option B) : Prop :=
  forall a, o = Some a -> exists b, go = Some b /\ R a b.

Lemma orel_none {A B} (R:A -> B -> Prop) go : orel R None go.
Proof. intros a H; discriminate H. Qed.
Lemma orel_some {A B} (R:A -> B -> Prop) a b : R a b -> orel R (Some a) (Some b).
Proof. intros r a' [= <-]. eauto. Qed.
Lemma orel_bind {A B C D} {R:A -> B -> Prop} {S:C -> D -> Prop} {o go k gk} :
  orel R o go -> (forall a b, R a b -> orel S (k a) (gk b)) ->
  orel S (match o with Some a => k a | None => None end) (match go with Some b => gk b | None => None end).
Proof. intros Ho Hk c E. destruct o as [a|]; [|discriminate E]. destruct (Ho a eq_refl) as (b & -> & r). exact (Hk a b r c E). Qed.

(** the target's result is a function of the fuel: [sim_res] against [Ev g] *)
Lemma sim_ev_ret {A B} (R:A -> B -> Prop) a b t : R a b -> sim_res R (Done a t) (Ev (fun _ => Done b t)).
Proof. apply sim_ret, Ev_ret. Qed.
Lemma sim_ev_bind {A B C D} (R:A -> B -> Prop) (S:C -> D -> Prop) r g k gk :
  sim_res R r (Ev g) -> (forall a b t, R a b -> sim_res S (k a t) (Ev (fun m => gk m b t))) ->
  sim_res S (rbind r k) (Ev (fun m => rbind (g m) (gk m))).
Proof.
  intros Hr Hk. apply (sim_bind _ _ _ _ _ _ Hr). intros a b t r' E.
  exact (sim_mono (Hk a b t r') (fun c t2 => Ev_bind g gk b t c t2 E)).
Qed.
Lemma sim_ev_opt {A B C D} {R:A -> B -> Prop} {S:C -> D -> Prop} {o go k gk w} :
  orel R o go -> (forall a b, R a b -> sim_res S (k a) (Ev (fun m => gk m b))) ->
  sim_res S (match o with Some a => k a | None => Stuck w end)
            (Ev (fun m => match go with Some b => gk m b | None => Stuck w end)).
Proof. intros Ho Hk. destruct o as [a|]; [|apply sim_stuck]. destruct (Ho a eq_refl) as (b & -> & r). exact (Hk a b r). Qed.

Section Lists.
Context {A B : Type} (R : A -> B -> Prop).

Lemma Forall2_map_eq {C} (f:A -> C) (g:B -> C) l gl :
  (forall x y, R x y -> g y = f x) -> Forall2 R l gl -> map g gl = map f l.
Proof. intros E; induction 1 as [|x y l gl r _ IH]; cbn; [|rewrite IH, (E x y r)]; reflexivity. Qed.
Lemma Forall2_map_same {C} (f:C -> A) (g:C -> B) l : (forall c, R (f c) (g c)) -> Forall2 R (map f l) (map g l).
Proof. intros E; induction l; cbn; auto. Qed.

Lemma Forall2_last l gl : Forall2 R l gl -> orel R (List.last (map Some l) None) (List.last (map Some gl) None).
Proof.
  induction 1 as [|x y l gl r F IH]; [apply orel_none|].
  destruct F; [apply orel_some; exact r|exact IH].
Qed.
Lemma Forall2_nth l gl n : Forall2 R l gl -> orel R (nth_error l n) (nth_error gl n).
Proof. intros F; revert n; induction F; intros [|n]; cbn; auto using orel_none, orel_some. Qed.
Lemma Forall2_firstn l gl n : Forall2 R l gl -> Forall2 R (firstn n l) (firstn n gl).
Proof. intros F; revert n; induction F; intros [|n]; cbn; auto. Qed.
Lemma Forall2_skipn l gl n : Forall2 R l gl -> Forall2 R (skipn n l) (skipn n gl).
Proof. intros F; revert n; induction F; intros [|n]; cbn; auto. Qed.
End Lists.

Section LibSim.
Variable d : dialect.
Variable ctor_ok : string -> string -> bool -> Prop.

Variable gfuncs : list (var * (list var * list gstmt)).
Variable gvars : list (var * gexpr).

Notation vrel := (vrel d ctor_ok gfuncs).
Notation gapply := (gapply gfuncs gvars).
Notation vI := (vrel_asInt d ctor_ok gfuncs _ _).
Notation vS := (vrel_asStr d ctor_ok gfuncs _ _).
Notation vB := (vrel_asBool d ctor_ok gfuncs _ _).

Variable sapp : val -> list val -> trace -> res val.
Hypothesis HA : forall fv gf vs gvs t,
  vrel fv gf -> Forall2 vrel vs gvs -> sim_res vrel (sapp fv vs t) (Ev (fun m => gapply m gf gvs t)).

Hint Constructors SimDefs.vrel Forall2 : vrel.
Hint Resolve orel_none orel_some Forall2_app Forall2_firstn Forall2_skipn Forall2_map_same : vrel.

Lemma vrel_asSlice {v gv} : vrel v gv -> orel (Forall2 vrel) (asSlice sops v) (asSlice gops gv).
Proof. destruct 1; cbn; auto with vrel. Qed.

Lemma vrel_asTuple {v gv} : vrel v gv -> orel (Forall2 vrel) (asTuple sops v) (asTuple gops gv).
Proof.
  destruct 1 as [| | | |vs gvs Vs T| | | | | |]; try apply orel_none.
  intros l [= <-]. exists gvs; split; [|exact Vs].
  rewrite (Forall2_length' Vs) in T.
  destruct gvs as [|a [|b [|c [|e gvs]]]]; destruct T as [T|T]; try discriminate T; reflexivity.
Qed.

Lemma fmt_atom_rel v gv : vrel v gv -> fmt_atom gops gv = fmt_atom sops v.
Proof. intros V. unfold fmt_atom. rewrite (vI V), (vS V), (vB V). reflexivity. Qed.

Lemma fmt_v_rel v gv : vrel v gv -> fmt_v gops gv = fmt_v sops v.
Proof.
  intros V. unfold fmt_v. rewrite (fmt_atom_rel _ _ V). destruct (fmt_atom sops v); [reflexivity|].
  destruct V as [| | | | | | | |l gl Vl| |]; try reflexivity.
  cbn [asSlice gops sops]. rewrite (Forall2_map_eq _ _ _ _ _ fmt_atom_rel Vl). reflexivity.
Qed.

Lemma sprintf1_rel f v gv : vrel v gv -> sprintf1 gops f gv = sprintf1 sops f v.
Proof.
  intros V. apply format1_ext. intros c. unfold fmt_verb. rewrite (vI V), (vS V), (fmt_v_rel _ _ V). reflexivity.
Qed.

Lemma zip_rel x gx : Forall2 vrel x gx -> forall y gy, Forall2 vrel y gy ->
  orel (Forall2 vrel) (zip_tuples sops x y) (zip_tuples gops gx gy).
Proof.
  induction 1 as [|a ga x gx Va _ IH]; intros ? ? [|b gb y gy Vb Vy]; cbn [zip_tuples]; auto with vrel.
  unfold option_map. apply (orel_bind (IH _ _ Vy)). intros l gl Vl.
  apply orel_some. constructor; [|exact Vl].
  apply (VR_tuple d ctor_ok gfuncs [a; b] [ga; gb]); [auto with vrel|left; reflexivity].
Qed.

Lemma sort_rel l gl : Forall2 vrel l gl -> orel (Forall2 vrel) (sort_vals sops l) (sort_vals gops gl).
Proof.
  intros Vl. unfold sort_vals.
  rewrite (Forall2_map_eq _ _ _ _ _ (vrel_asInt d ctor_ok gfuncs) Vl), (Forall2_map_eq _ _ _ _ _ (vrel_asStr d ctor_ok gfuncs) Vl).
  destruct (all_some (map (asInt sops) l)); [|destruct (all_some (map (asStr sops) l))]; auto with vrel.
Qed.

Lemma lib_pure_sim fn vs gvs :
  src_fn fn = true -> Forall2 vrel vs gvs -> orel vrel (lib_pure sops fn vs) (lib_pure gops fn gvs).
Proof.
  intros S F.
  destruct F as [|a1 g1 r1 s1 V1 [|a2 g2 r2 s2 V2 [|]]]; destruct fn; try discriminate S; try apply orel_none;
    cbn [lib_pure]; unfold option_map.
  (* the goals are in the order of [libfn], those of one argument first; the first seven take a slice *)
  1-7: apply (orel_bind (vrel_asSlice V1)); intros l gl Vl.
  - (* Length *) rewrite (Forall2_length' Vl). auto with vrel.
  - (* Head *) destruct Vl; auto with vrel.
  - (* Tail *) destruct Vl; auto with vrel.
  - (* Last *) apply Forall2_last; exact Vl.
  - (* IsEmpty *) destruct Vl; auto with vrel.
  - (* IsNotEmpty *) destruct Vl; auto with vrel.
  - (* Sort *) apply (orel_bind (sort_rel _ _ Vl)); auto with vrel.
  - (* strings.Length *) rewrite (vS V1). destruct (asStr sops a1); auto with vrel.
  - (* Fst *)
    apply (orel_bind (vrel_asTuple V1)); intros l gl Vl.
    destruct Vl as [|? ? ? ? Va [|? ? ? ? Vb [|]]]; auto with vrel.
  - (* Snd *)
    apply (orel_bind (vrel_asTuple V1)); intros l gl Vl.
    destruct Vl as [|? ? ? ? Va [|? ? ? ? Vb [|]]]; auto with vrel.
  - (* Sprintf1 *)
    rewrite (vS V1). destruct (asStr sops a1) as [fs|]; [|apply orel_none].
    rewrite (sprintf1_rel fs _ _ V2). destruct (sprintf1 sops fs a2); auto with vrel.
  - (* Item *)
    rewrite (vI V1). destruct (asInt sops a1) as [z|]; [|apply orel_none].
    apply (orel_bind (vrel_asSlice V2)); intros l gl Vl.
    destruct (Z.ltb z 0); [apply orel_none|apply Forall2_nth; exact Vl].
  - (* Take *)
    rewrite (vI V1). destruct (asInt sops a1) as [z|]; [|apply orel_none].
    apply (orel_bind (vrel_asSlice V2)); intros l gl Vl. rewrite <- (Forall2_length' Vl).
    destruct (Z.leb z 0); [|destruct (Z.leb z _)]; auto with vrel.
  - (* Skip *)
    rewrite (vI V1). destruct (asInt sops a1) as [z|]; [|apply orel_none].
    apply (orel_bind (vrel_asSlice V2)); intros l gl Vl. rewrite <- (Forall2_length' Vl).
    destruct (Z.leb _ z); [|destruct (Z.ltb z 0)]; auto with vrel.
  - (* PushLast *) apply (orel_bind (vrel_asSlice V2)); auto with vrel.
  - (* PushHead *) apply (orel_bind (vrel_asSlice V2)); auto with vrel.
  - (* Append *)
    apply (orel_bind (vrel_asSlice V1)); intros l1 gl1 Vl1.
    apply (orel_bind (vrel_asSlice V2)); auto with vrel.
  - (* Zip *)
    apply (orel_bind (vrel_asSlice V1)); intros l1 gl1 Vl1.
    apply (orel_bind (vrel_asSlice V2)); intros l2 gl2 Vl2.
    apply (orel_bind (zip_rel _ _ Vl1 _ _ Vl2)); auto with vrel.
  - (* strings.Concat *)
    rewrite (vS V1). destruct (asStr sops a1) as [p|]; [|apply orel_none].
    apply (orel_bind (vrel_asSlice V2)); intros l gl Vl.
    rewrite (Forall2_map_eq _ _ _ _ _ (vrel_asStr d ctor_ok gfuncs) Vl). destruct (all_some _); auto with vrel.
  - (* HasPrefix *) rewrite (vS V1), (vS V2). destruct (asStr sops a1), (asStr sops a2); auto with vrel.
  - (* HasSuffix *) rewrite (vS V1), (vS V2). destruct (asStr sops a1), (asStr sops a2); auto with vrel.
  - (* AppendHead *) rewrite (vS V1), (vS V2). destruct (asStr sops a1), (asStr sops a2); auto with vrel.
  - (* AppendTail *) rewrite (vS V1), (vS V2). destruct (asStr sops a1), (asStr sops a2); auto with vrel.
  - (* Split *) rewrite (vS V1), (vS V2). destruct (asStr sops a1) as [[|c sep]|], (asStr sops a2); auto with vrel.
Qed.

Section Callback.
Variables (f : val) (gf : gval).
Hypothesis Vf : vrel f gf.

Lemma map_cb_sim l gl : Forall2 vrel l gl -> forall t,
  sim_res (Forall2 vrel) (map_cb sapp f l t) (Ev (fun m => map_cb (gapply m) gf gl t)).
Proof.
  induction 1 as [|x gx l gl Vx _ IH]; intros t; cbn [map_cb]; [apply sim_ev_ret; constructor|].
  eapply sim_ev_bind; [apply HA; auto with vrel|intros y gy t1 Vy].
  eapply sim_ev_bind; [apply IH|intros ys gys t2 Vys]. apply sim_ev_ret; auto with vrel.
Qed.

Lemma mapi_cb_sim l gl : Forall2 vrel l gl -> forall i t,
  sim_res (Forall2 vrel) (mapi_cb sops sapp f i l t) (Ev (fun m => mapi_cb gops (gapply m) gf i gl t)).
Proof.
  induction 1 as [|x gx l gl Vx _ IH]; intros i t; cbn [mapi_cb]; [apply sim_ev_ret; constructor|].
  eapply sim_ev_bind; [apply HA; auto with vrel|intros y gy t1 Vy].
  eapply sim_ev_bind; [apply IH|intros ys gys t2 Vys]. apply sim_ev_ret; auto with vrel.
Qed.

Lemma filter_cb_sim l gl : Forall2 vrel l gl -> forall t,
  sim_res (Forall2 vrel) (filter_cb sops sapp f l t) (Ev (fun m => filter_cb gops (gapply m) gf gl t)).
Proof.
  induction 1 as [|x gx l gl Vx _ IH]; intros t; cbn [filter_cb]; [apply sim_ev_ret; constructor|].
  eapply sim_ev_bind; [apply HA; auto with vrel|intros y gy t1 Vy].
  rewrite (vB Vy). destruct (asBool sops y) as [b|]; [|apply sim_stuck].
  eapply sim_ev_bind; [apply IH|intros ys gys t2 Vys]. apply sim_ev_ret. destruct b; auto with vrel.
Qed.

Lemma iter_cb_sim l gl : Forall2 vrel l gl -> forall t,
  sim_res vrel (iter_cb sops sapp f l t) (Ev (fun m => iter_cb gops (gapply m) gf gl t)).
Proof.
  induction 1 as [|x gx l gl Vx _ IH]; intros t; cbn [iter_cb]; [apply sim_ev_ret; constructor|].
  eapply sim_ev_bind; [apply HA; auto with vrel|intros y gy t1 Vy; apply IH].
Qed.

Lemma fold_cb_sim l gl : Forall2 vrel l gl -> forall s gs t, vrel s gs ->
  sim_res vrel (fold_cb sapp f s l t) (Ev (fun m => fold_cb (gapply m) gf gs gl t)).
Proof.
  induction 1 as [|x gx l gl Vx _ IH]; intros s gs t Vs; cbn [fold_cb]; [apply sim_ev_ret; exact Vs|].
  eapply sim_ev_bind; [apply HA; auto with vrel|intros s1 gs1 t1 Vs1; apply IH; exact Vs1].
Qed.

Lemma forall_cb_sim l gl : Forall2 vrel l gl -> forall t,
  sim_res vrel (forall_cb sops sapp f l t) (Ev (fun m => forall_cb gops (gapply m) gf gl t)).
Proof.
  induction 1 as [|x gx l gl Vx _ IH]; intros t; cbn [forall_cb]; [apply sim_ev_ret; constructor|].
  eapply sim_ev_bind; [apply HA; auto with vrel|intros y gy t1 Vy].
  rewrite (vB Vy). destruct (asBool sops y) as [[|]|]; [apply IH|apply sim_ev_ret; constructor|apply sim_stuck].
Qed.

Lemma forany_cb_sim l gl : Forall2 vrel l gl -> forall t,
  sim_res vrel (forany_cb sops sapp f l t) (Ev (fun m => forany_cb gops (gapply m) gf gl t)).
Proof.
  induction 1 as [|x gx l gl Vx _ IH]; intros t; cbn [forany_cb]; [apply sim_ev_ret; constructor|].
  eapply sim_ev_bind; [apply HA; auto with vrel|intros y gy t1 Vy].
  rewrite (vB Vy). destruct (asBool sops y) as [[|]|]; [apply sim_ev_ret; constructor|apply IH|apply sim_stuck].
Qed.

End Callback.

Lemma lib_sem_sim fn vs gvs t :
  src_fn fn = true -> Forall2 vrel vs gvs ->
  sim_res vrel (lib_sem sops sapp fn vs t) (Ev (fun m => lib_sem gops (gapply m) fn gvs t)).
Proof.
  intros S F. destruct (pure_fn fn) eqn:P.
  { rewrite (lib_sem_pure sops sapp _ _ _ P). apply sim_of_opt. intros v L.
    destruct (lib_pure_sim _ _ _ S F v L) as (gv & Lg & V).
    exists gv; split; [exact (Gl_pure gfuncs gvars fn gvs t gv P Lg)|exact V]. }
  destruct fn; try discriminate P; try discriminate S;
    destruct F as [|a1 g1 r1 s1 V1 [|a2 g2 r2 s2 V2 [|a3 g3 r3 s3 V3 [|]]]]; try apply sim_stuck; cbn [lib_sem].
  - (* Println *)
    rewrite (vS V1). destruct (asStr sops a1); [apply sim_ev_ret; constructor|apply sim_stuck].
  - (* Printf1 *)
    rewrite (vS V1). destruct (asStr sops a1) as [fs|]; [|apply sim_stuck].
    rewrite (sprintf1_rel fs _ _ V2). destruct (sprintf1 sops fs a2); [apply sim_ev_ret; constructor|apply sim_stuck].
  - (* Map *)
    apply (sim_ev_opt (vrel_asSlice V2)); intros l gl Vl.
    eapply sim_ev_bind; [apply map_cb_sim; assumption|intros; apply sim_ev_ret; auto with vrel].
  - (* Mapi *)
    apply (sim_ev_opt (vrel_asSlice V2)); intros l gl Vl.
    eapply sim_ev_bind; [apply mapi_cb_sim; assumption|intros; apply sim_ev_ret; auto with vrel].
  - (* Filter *)
    apply (sim_ev_opt (vrel_asSlice V2)); intros l gl Vl.
    eapply sim_ev_bind; [apply filter_cb_sim; assumption|intros; apply sim_ev_ret; auto with vrel].
  - (* Iter *)
    apply (sim_ev_opt (vrel_asSlice V2)); intros l gl Vl. apply iter_cb_sim; assumption.
  - (* Fold *)
    apply (sim_ev_opt (vrel_asSlice V3)); intros l gl Vl. apply fold_cb_sim; assumption.
  - (* Forall *)
    apply (sim_ev_opt (vrel_asSlice V2)); intros l gl Vl. apply forall_cb_sim; assumption.
  - (* Forany *)
    apply (sim_ev_opt (vrel_asSlice V2)); intros l gl Vl. apply forany_cb_sim; assumption.
Qed.

End LibSim.
