(** C17 — tinyfo's lowering preserves behaviour: the simulation of Core/Sim.v is generic in the dialect,
    so the theorem is the instance [DTiny] (with tinyfo's initial temporary counter).  The modelled lowering is
    correct on all of MiniFo: the hypotheses [tiny_subset p] and [wt p] of the statements below are not used
    ([tiny_subset] delimits what tinyfo accepts; [pap_args_pure] is [wfp true], the conditions of [wt] and purity). *)
From Coq Require Import List ZArith String Ascii Bool Lia.
From FoVerif Require Import Core.Common Core.MiniFo Core.MiniGo Core.Compile Core.SimDefs
  Core.CompileProof Core.CompileMore Core.CompileExamples Core.CompileTiny Core.WfCheck.
Import ListNotations.
Open Scope list_scope.

Theorem compile_tiny_correct : forall p n out,
  tiny_subset p -> wt p -> pap_args_pure p ->
  run_src n p = ODone out -> exists m, run_go m (compile_tiny p) = ODone out.
Proof.
  intros p n out _ _ Hp R. destruct (compile_correct_eventually_d DTiny (tiny_start p) p Hp n out R) as (m0 & H).
  exists m0. apply H. apply le_n.
Qed.

Theorem tiny_output_is_source_output p n out :
  tiny_subset p -> wt p -> pap_args_pure p -> run_src n p = ODone out ->
  forall m out', run_go m (compile_tiny p) = ODone out' -> out' = out.
Proof. intros _ _. exact (go_output_is_source_output_d DTiny (tiny_start p) p n out). Qed.

Theorem tiny_agrees_with_fc p n o m1 m2 out out' :
  tiny_subset p -> wt p -> pap_args_pure p -> run_src n p = ODone o ->
  run_go m1 (compile_tiny p) = ODone out -> run_go m2 (compile_prog p) = ODone out' -> out = out'.
Proof.
  intros Ht Hw Hp R G1 G2.
  rewrite (tiny_output_is_source_output p n o Ht Hw Hp R m1 out G1).
  rewrite (go_output_is_source_output p n o Hp R m2 out' G2). reflexivity.
Qed.

Theorem tiny_and_fc_both_run p n o :
  tiny_subset p -> wt p -> pap_args_pure p -> run_src n p = ODone o ->
  exists m, run_go m (compile_tiny p) = ODone o /\ run_go m (compile_prog p) = ODone o.
Proof.
  intros _ _ Hp R.
  destruct (compile_correct_eventually_d DTiny (tiny_start p) p Hp n o R) as (m1 & H1).
  destruct (compile_correct_eventually_d DFc 0 p Hp n o R) as (m2 & H2).
  exists (Nat.max m1 m2). split; [apply H1|apply H2]; lia.
Qed.

Definition ex_tiny : prog :=
{| p_unions := [("Shape"%string, [("Circle"%string, true); ("Rect"%string, true); ("Empty"%string, false)])];
   p_funs := [("say"%string, (["s"%string; "n"%string],
 (BDo (EExt LPrintln [(EVar "s"%string)])
 (BRet (EVar "n"%string) false)))); ("add"%string, (["a"%string; "b"%string],
 (BRet (EBin OAdd (EVar "a"%string) (EVar "b"%string)) false))); ("hello"%string, ([],
 (BRet (EExt LPrintln [(EStr "hello"%string)]) true))); ("fact"%string, (["n"%string],
 (BRet (EIf (EBin OLe (EVar "n"%string) (EInt (0)%Z)) (BRet (EInt (1)%Z) false) (BRet (EBin OAdd (EVar "n"%string) (ECall "fact"%string 0 false [(EBin OSub (EVar "n"%string) (EInt (1)%Z))])) false)) false))); ("area"%string, (["s"%string],
 (BRet (EMatchU (EVar "s"%string) "Shape"%string [("Circle"%string, (Some "r"%string), (BRet (EBin OAdd (EVar "r"%string) (EVar "r"%string)) false)); ("Rect"%string, (Some "p"%string), (BDestr ["w"%string; "h"%string] (EVar "p"%string)
 (BRet (EBin OAdd (EVar "w"%string) (EVar "h"%string)) false))); ("Empty"%string, None, (BRet (EInt (0)%Z) false))] None) false))); ("isCircle"%string, (["s"%string],
 (BRet (EMatchU (EVar "s"%string) "Shape"%string [("Circle"%string, None, (BRet (EBool true) false))] (Some (BRet (EBool false) false))) false))); ("name"%string, (["s"%string],
 (BRet (EMatchU (EVar "s"%string) "Shape"%string [("Circle"%string, None, (BRet (EStr "circle"%string) false)); ("Rect"%string, None, (BRet (EStr "rect"%string) false)); ("Empty"%string, None, (BRet (EStr "empty"%string) false))] None) false))); ("show"%string, (["n"%string],
 (BRet (EExt LPrintf1 [(EStr "%d
"%string); (EVar "n"%string)]) true)))];
   p_main := (BLet "x"%string (EBin OSub (EBin OAdd (EInt (1)%Z) (EInt (2)%Z)) (EInt (3)%Z))
 (BLet "g"%string (ECall "add"%string 1 false [(EInt (1)%Z)])
 (BLet "y"%string (ECall "g"%string 0 false [(EInt (2)%Z)])
 (BDo (EExt LPrintf1 [(EStr "%d
"%string); (EVar "y"%string)])
 (BDo (ECall "hello"%string 0 true [])
 (BLet "r"%string (ERecord "Rec"%string ["X"%string; "Name"%string] ["X"%string; "Name"%string] [(EInt (1)%Z); (EStr "abc"%string)])
 (BDo (EExt LPrintln [(EField (EVar "r"%string) "Name"%string)])
 (BLet "t"%string (ETuple [(EInt (1)%Z); (EStr "two"%string)])
 (BDestr ["a"%string; "b"%string] (EVar "t"%string)
 (BDo (EExt LPrintf1 [(EStr "%d
"%string); (EVar "a"%string)])
 (BDo (EExt LPrintln [(EVar "b"%string)])
 (BLet "z"%string (EIf (EBin OAnd (EBin OGt (EVar "x"%string) (EInt (3)%Z)) (EBin OLt (EVar "y"%string) (EInt (5)%Z))) (BRet (EInt (10)%Z) false) (BRet (EInt (20)%Z) false))
 (BDo (EIf (EEq false (EVar "x"%string) (EInt (7)%Z)) (BRet (EExt LPrintln [(EStr "seven"%string)]) true) (BRet (EIf (EEq false (EVar "x"%string) (EInt (8)%Z)) (BRet (EExt LPrintln [(EStr "eight"%string)]) true) (BRet (EExt LPrintln [(EStr "not seven"%string)]) true)) true))
 (BDo (EIfOnly (EEq true (EVar "x"%string) (EInt (7)%Z)) (BRet (EExt LPrintln [(EStr "only"%string)]) true))
 (BLet "s"%string (ESlice [(EInt (1)%Z); (EInt (2)%Z); (EInt (3)%Z)])
 (BLet "s2"%string (EPipeExt (EPipeExt (EVar "s"%string) LMap [(ECall "add"%string 1 false [(EInt (1)%Z)])] false) LTake [(EInt (2)%Z)] false)
 (BDo (EExt LPrintf1 [(EStr "%v
"%string); (EVar "s2"%string)])
 (BDo (EPipeExt (EVar "s2"%string) LIter [(EVar "show"%string)] true)
 (BLet "c"%string (ECtor "Shape"%string "Circle"%string (Some (EInt (3)%Z)))
 (BDo (EExt LPrintf1 [(EStr "%d
"%string); (ECall "area"%string 0 false [(EVar "c"%string)])])
 (BDo (EExt LPrintf1 [(EStr "%d
"%string); (ECall "area"%string 0 false [(ECtor "Shape"%string "Empty"%string None)])])
 (BDo (EExt LPrintf1 [(EStr "%d
"%string); (ECall "area"%string 0 false [(ECtor "Shape"%string "Rect"%string (Some (ETuple [(EInt (2)%Z); (EInt (3)%Z)])))])])
 (BDo (EExt LPrintf1 [(EStr "%v
"%string); (ECall "isCircle"%string 0 false [(EVar "c"%string)])])
 (BDo (EExt LPrintln [(ECall "name"%string 0 false [(EVar "c"%string)])])
 (BLet "w"%string (EBin OOr (ENot (EEq false (EVar "x"%string) (EInt (3)%Z))) (EBin OGt (EVar "z"%string) (EInt (4)%Z)))
 (BDo (EExt LPrintf1 [(EStr "%v
"%string); (EVar "w"%string)])
 (BLet "m"%string (EMatchU (EVar "c"%string) "Shape"%string [("Circle"%string, (Some "rr"%string), (BRet (EBin OAdd (EVar "rr"%string) (EInt (1)%Z)) false))] (Some (BRet (EInt (0)%Z) false)))
 (BDo (EExt LPrintf1 [(EStr "%d
"%string); (EVar "m"%string)])
 (BDo (EMatchU (EVar "c"%string) "Shape"%string [("Circle"%string, (Some "r2"%string), (BRet (EExt LPrintf1 [(EStr "%d
"%string); (EVar "r2"%string)]) true)); ("Rect"%string, None, (BRet (EExt LPrintln [(EStr "rect"%string)]) true)); ("Empty"%string, None, (BRet (EExt LPrintln [(EStr "empty"%string)]) true))] None)
 (BDo (EPipeVar (EPipeCall (EInt (3)%Z) "add"%string [(EInt (2)%Z)] false) "show"%string true)
 (BDo (EExt LPrintf1 [(EStr "%d
"%string); (ECall "say"%string 0 false [(EStr "eff"%string); (EInt (3)%Z)])])
 (BDo (EExt LPrintf1 [(EStr "%d
"%string); (ECall "fact"%string 0 false [(EInt (5)%Z)])])
 (BRet (EExt LPrintln [(EStr "done"%string)]) true))))))))))))))))))))))))))))))))) |}.

Lemma ex_tiny_subset : tiny_subset ex_tiny.
Proof. apply (tiny_b_sound 40). vm_compute. reflexivity. Qed.
Lemma ex_tiny_pure : pap_args_pure ex_tiny.
Proof. apply (wfp_b_sound true 40). vm_compute. reflexivity. Qed.
Lemma ex_tiny_wt : wt ex_tiny.
Proof. apply (wfp_b_sound false 40). vm_compute. reflexivity. Qed.

(** both translations print what the source prints ([let]: each of the three runs is evaluated once) *)
Lemma ex_tiny_runs :
  let r := run_src 100 ex_tiny in
  run_go 200 (compile_tiny ex_tiny) = r /\ run_go 200 (compile_prog ex_tiny) = r /\
  exists out, r = ODone out /\ String.length out = 86.
Proof. vm_compute. repeat split. eexists; split; reflexivity. Qed.

(** the effectful partial application of C01 lies in tinyfo's subset: tinyfo has the same defect as fc
    (its closure re-evaluates the supplied arguments at each call) and agrees with fc, not with the source *)
Lemma ex_effectful_pap_tiny : tiny_subset ex_effectful_pap.
Proof. apply (tiny_b_sound 40). vm_compute. reflexivity. Qed.
Lemma ex_effectful_pap_tiny_go :
  run_go 200 (compile_tiny ex_effectful_pap) = run_go 200 (compile_prog ex_effectful_pap).
Proof. rewrite ex_effectful_pap_go. vm_compute. reflexivity. Qed.
