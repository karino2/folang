(** C01 — big-step rules for MiniGo derived from the fuelled evaluator, in the "eventually" form
    [exists m, forall m' >= m, geval m' … = Done …].  Premises of this form combine by taking the larger fuel,
    so the rules (and the simulation built on them) do not use that the evaluator is monotone in the fuel;
    Core/FuelMono.v proves that separately, for the uniqueness of outputs. *)
From Coq Require Import List ZArith String Ascii Bool.
From FoVerif Require Import Core.Common Core.Lib Core.MiniGo.
Import ListNotations.
Open Scope list_scope.

Definition ret_val (o:option gval) : gval := match o with Some v => v | None => GVUnit end.

Definition Ev {A} (f:nat -> res A) (a:A) (t:trace) : Prop := exists m, forall m', m <= m' -> f m' = Done a t.

Lemma Ev_ret {A} (a:A) t : Ev (fun _ => Done a t) a t.
Proof. exists 0; reflexivity. Qed.

Lemma Ev_S {A} (f g:nat -> res A) a t : (forall m, f (S m) = g m) -> Ev g a t -> Ev f a t.
Proof.
  intros E [m H]; exists (S m); intros [|m'] L; [inversion L|]. rewrite E. apply H, le_S_n, L.
Qed.

Lemma Ev_bind {A B} (f:nat -> res A) (k:nat -> A -> trace -> res B) a t1 b t2 :
  Ev f a t1 -> Ev (fun m => k m a t1) b t2 -> Ev (fun m => rbind (f m) (k m)) b t2.
Proof.
  intros [m1 H1] [m2 H2]; exists (Nat.max m1 m2); intros m' L.
  rewrite (H1 m' (Nat.max_lub_l _ _ _ L)). exact (H2 m' (Nat.max_lub_r _ _ _ L)).
Qed.

Section Rules.
Variable funcs : list (var * (list var * list gstmt)).
Variable vars : list (var * gexpr).

Notation geval := (geval funcs vars).
Notation gevals := (gevals funcs vars).
Notation gexec := (gexec funcs vars).
Notation gapply := (gapply funcs vars).

(** each judgement is [Ev] of the evaluator it is named after (the first two with [Ev] unfolded) *)
Definition Geval env e t gv t' := exists m, forall m', m <= m' -> geval m' env e t = Done gv t'.
Definition Gevals env es t gvs t' := exists m, forall m', m <= m' -> gevals m' env es t = Done gvs t'.
Definition Gexec env ss t (o:option gval) := Ev (fun m => gexec m env ss t) o.
Definition Gapply f vs t := Ev (fun m => gapply m f vs t).
Definition Glib fn vs t := Ev (fun m => lib_sem gops (gapply m) fn vs t).

Definition glookup (x:var) (env:genv) : option gval :=
  match lookup x env with
  | Some v => Some v
  | None => match lookup x funcs with
            | Some (ps, body) => Some (GVClo [] ps body)
            | None => None
            end
  end.

(** one unit of fuel: the evaluator's equation for the construct at hand *)
Ltac ev := refine (Ev_S _ _ _ _ (fun _ => eq_refl) _); cbn [MiniGo.geval MiniGo.gevals MiniGo.gexec MiniGo.gapply].
(** the next sub-evaluation is the one [H] speaks of *)
Ltac ev_bind H := eapply Ev_bind; [exact H|cbv beta iota].

Lemma G_int env z t : Geval env (GInt z) t (GVInt z) t.
Proof. ev. apply Ev_ret. Qed.
Lemma G_str env s t : Geval env (GStr s) t (GVStr s) t.
Proof. ev. apply Ev_ret. Qed.
Lemma G_bool env b t : Geval env (GBool b) t (GVBool b) t.
Proof. ev. apply Ev_ret. Qed.
Lemma G_none env t : Geval env GNone t GVUnit t.
Proof. ev. apply Ev_ret. Qed.
Lemma G_lib env fn t : Geval env (GLib fn) t (GVLib fn) t.
Proof. ev. apply Ev_ret. Qed.
Lemma G_func env ps b t : Geval env (GFunc ps b) t (GVClo env ps b) t.
Proof. ev. apply Ev_ret. Qed.

Lemma G_var env x v t : glookup x env = Some v -> Geval env (GVar x) t v t.
Proof.
  unfold glookup; intros L. ev.
  destruct (lookup x env); [|destruct (lookup x funcs) as [[ps body]|]; [|discriminate L]];
    injection L as <-; apply Ev_ret.
Qed.

Lemma G_var_pkgvar env x init t v t' :
  lookup x env = None -> lookup x funcs = None -> lookup x vars = Some init ->
  Geval [] init t v t' -> Geval env (GVar x) t v t'.
Proof. intros L1 L2 L3 H. ev. rewrite L1, L2, L3. exact H. Qed.

Lemma G_arith env op a b t va t1 vb t2 v :
  op <> OAnd -> op <> OOr ->
  Geval env a t va t1 -> Geval env b t1 vb t2 -> arith gops op va vb = Some v ->
  Geval env (GBin op a b) t v t2.
Proof.
  (* [op] is a variable, so the evaluator's [match op] does not reduce: its equation is stated and proved by cases *)
  intros N1 N2 H1 H2 A.
  refine (Ev_S _ (fun m => doo va, t1 <- geval m env a t; doo vb, t2 <- geval m env b t1;
                            of_opt (arith_why gops op va vb) (arith gops op va vb) t2) _ _ _ _).
  { intros m; cbn [MiniGo.geval]. match goal with |- _ = ?z => generalize z end.
    destruct op; reflexivity || contradiction. }
  ev_bind H1. ev_bind H2. rewrite A. apply Ev_ret.
Qed.

Lemma G_and_false env a b t t1 :
  Geval env a t (GVBool false) t1 -> Geval env (GBin OAnd a b) t (GVBool false) t1.
Proof. intros H1. ev. ev_bind H1. apply Ev_ret. Qed.
Lemma G_and_true env a b t t1 y t2 :
  Geval env a t (GVBool true) t1 -> Geval env b t1 (GVBool y) t2 -> Geval env (GBin OAnd a b) t (GVBool y) t2.
Proof. intros H1 H2. ev. ev_bind H1. ev_bind H2. apply Ev_ret. Qed.
Lemma G_or_true env a b t t1 :
  Geval env a t (GVBool true) t1 -> Geval env (GBin OOr a b) t (GVBool true) t1.
Proof. intros H1. ev. ev_bind H1. apply Ev_ret. Qed.
Lemma G_or_false env a b t t1 y t2 :
  Geval env a t (GVBool false) t1 -> Geval env b t1 (GVBool y) t2 -> Geval env (GBin OOr a b) t (GVBool y) t2.
Proof. intros H1 H2. ev. ev_bind H1. ev_bind H2. apply Ev_ret. Qed.

Lemma G_call env f args t fv t0 vs t1 v t2 :
  Geval env f t fv t0 -> Gevals env args t0 vs t1 -> Gapply fv vs t1 v t2 ->
  Geval env (GCall f args) t v t2.
Proof. intros H1 H2 H3. ev. ev_bind H1. ev_bind H2. exact H3. Qed.

Lemma G_struct env tname decl fs t vs t1 gfs :
  Gevals env (map snd fs) t vs t1 -> arrange decl (combine (map fst fs) vs) = Some gfs ->
  Geval env (GStructLit tname decl fs) t (GVStruct tname gfs) t1.
Proof. intros H1 A. ev. ev_bind H1. rewrite A. apply Ev_ret. Qed.

Lemma G_slice env es t vs t1 :
  Gevals env es t vs t1 -> Geval env (GSliceLit es) t (GVSlice vs) t1.
Proof. intros H1. ev. ev_bind H1. apply Ev_ret. Qed.

Lemma G_sel env e f t tn fs t1 v :
  Geval env e t (GVStruct tn fs) t1 -> lookup f fs = Some v -> Geval env (GSel e f) t v t1.
Proof. intros H1 L. ev. ev_bind H1. rewrite L. apply Ev_ret. Qed.

Lemma Gs_nil env t : Gevals env [] t [] t.
Proof. ev. apply Ev_ret. Qed.
Lemma Gs_cons env e es t v t1 vs t2 :
  Geval env e t v t1 -> Gevals env es t1 vs t2 -> Gevals env (e :: es) t (v :: vs) t2.
Proof. intros H1 H2. ev. ev_bind H1. ev_bind H2. apply Ev_ret. Qed.

Lemma Gx_nil env t : Gexec env [] t None t.
Proof. ev. apply Ev_ret. Qed.

Lemma Gx_define1 env x e r t v t1 o t2 :
  Geval env e t v t1 -> Gexec ((x, v) :: env) r t1 o t2 -> Gexec env (GSDefine [x] e :: r) t o t2.
Proof. intros H1 H2. ev. ev_bind H1. exact H2. Qed.

Lemma Gx_define_multi env xs e r t vs t1 env' o t2 :
  List.length xs <> 1 ->
  Geval env e t (GVMulti vs) t1 -> bind xs vs env = Some env' -> Gexec env' r t1 o t2 ->
  Gexec env (GSDefine xs e :: r) t o t2.
Proof.
  intros N H1 B H2. ev. ev_bind H1.
  destruct xs as [|x [|y xs]]; [|contradiction N; reflexivity|]; rewrite B; exact H2.
Qed.

Lemma Gx_expr env e r t v t1 o t2 :
  Geval env e t v t1 -> Gexec env r t1 o t2 -> Gexec env (GSExpr e :: r) t o t2.
Proof. intros H1 H2. ev. ev_bind H1. exact H2. Qed.

Lemma Gx_return env e r t v t1 :
  Geval env e t v t1 -> Gexec env (GSReturn e :: r) t (Some v) t1.
Proof. intros H1. ev. ev_bind H1. apply Ev_ret. Qed.

Definition switch_env (bx:option var) (v:gval) (env:genv) : genv :=
  match bx with Some x => (x, v) :: env | None => env end.
Definition switch_body (n:string) (cases:list (string * list gstmt)) (def:list gstmt) : list gstmt :=
  match find_case n cases with Some ss => ss | None => def end.

(** a switch that is the last statement of its list (the only way fc emits it) *)
Lemma Gx_typeswitch_last env bx e cases def t tn fs t1 o t2 :
  Geval env e t (GVStruct tn fs) t1 ->
  Gexec (switch_env bx (GVStruct tn fs) env) (switch_body tn cases def) t1 o t2 ->
  Gexec env [GSTypeSwitch bx e cases def] t o t2.
Proof. intros H1 H2. ev. ev_bind H1. ev_bind H2. destruct o; [apply Ev_ret|exact (Gx_nil _ _)]. Qed.

Lemma Gx_switch_last env bx e cases def t s t1 o t2 :
  Geval env e t (GVStr s) t1 ->
  Gexec (switch_env bx (GVStr s) env) (switch_body s cases def) t1 o t2 ->
  Gexec env [GSSwitch bx e cases def] t o t2.
Proof. intros H1 H2. ev. ev_bind H1. ev_bind H2. destruct o; [apply Ev_ret|exact (Gx_nil _ _)]. Qed.

Lemma Ga_clo env ps body vs env' t o t2 :
  bind ps vs env = Some env' -> Gexec env' body t o t2 -> Gapply (GVClo env ps body) vs t (ret_val o) t2.
Proof. intros B H1. ev. rewrite B. ev_bind H1. apply Ev_ret. Qed.

Lemma Ga_lib fn vs t v t2 : Glib fn vs t v t2 -> Gapply (GVLib fn) vs t v t2.
Proof. intros H1. ev. exact H1. Qed.

Lemma G_iife env body t o t2 :
  Gexec env body t o t2 -> Geval env (GCall (GFunc [] body) []) t (ret_val o) t2.
Proof.
  intros G. eapply G_call; [apply G_func|apply Gs_nil|]. eapply Ga_clo; [reflexivity|exact G].
Qed.

Lemma G_libcall env fn args t vs t1 v t2 :
  Gevals env args t vs t1 -> Glib fn vs t1 v t2 -> Geval env (GCall (GLib fn) args) t v t2.
Proof. intros G1 G2. eapply G_call; [apply G_lib|exact G1|apply Ga_lib; exact G2]. Qed.

Lemma Gl_pipe x f t v t2 : Gapply f [x] t v t2 -> Glib LPipe [x; f] t v t2.
Proof. intros H1. exact H1. Qed.
Lemma Gl_pipeunit x f t v t2 : Gapply f [x] t v t2 -> Glib LPipeUnit [x; f] t GVUnit t2.
Proof. intros H1. ev_bind H1. apply Ev_ret. Qed.
Lemma Gl_ifelse (c:bool) a b t v t2 :
  Gapply (if c then a else b) [] t v t2 -> Glib LIfElse [GVBool c; a; b] t v t2.
Proof. intros H1. destruct c; exact H1. Qed.
Lemma Gl_ifelseunit (c:bool) a b t v t2 :
  Gapply (if c then a else b) [] t v t2 -> Glib LIfElseUnit [GVBool c; a; b] t GVUnit t2.
Proof. intros H1. destruct c; (ev_bind H1; apply Ev_ret). Qed.
Lemma Gl_ifonly_true a t v t2 :
  Gapply a [] t v t2 -> Glib LIfOnly [GVBool true; a] t GVUnit t2.
Proof. intros H1. ev_bind H1. apply Ev_ret. Qed.
Lemma Gl_ifonly_false a t : Glib LIfOnly [GVBool false; a] t GVUnit t.
Proof. apply Ev_ret. Qed.

(** the functions that [lib_sem] hands to [lib_pure]: no callback, no output *)
Definition pure_fn (fn:libfn) : bool :=
  match fn with
  | LPrintln | LPrintf1 | LMap | LMapi | LFilter | LIter | LFold | LForall | LForany
  | LPipe | LPipeUnit | LIfElse | LIfElseUnit | LIfOnly => false
  | _ => true
  end.
Lemma lib_sem_pure {V} (ops:vops V) app fn vs t :
  pure_fn fn = true ->
  lib_sem ops app fn vs t = of_opt "library call: panic or ill-typed arguments" (lib_pure ops fn vs) t.
Proof. intros P; destruct fn; reflexivity || discriminate P. Qed.

Lemma Gl_pure fn vs t v :
  pure_fn fn = true -> lib_pure gops fn vs = Some v -> Glib fn vs t v t.
Proof. intros P L; exists 0; intros m' _. rewrite (lib_sem_pure _ _ _ _ _ P), L. reflexivity. Qed.

End Rules.
