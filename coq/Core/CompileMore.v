(** C01 — consequences of the simulation and of fuel monotonicity. *)
From Coq Require Import List ZArith String.
From FoVerif Require Import Core.Common Core.MiniFo Core.MiniGo Core.Compile Core.SimDefs
  Core.CompileProof Core.CompileExamples Core.FuelMono.
Import ListNotations.

Lemma mono_unique (run:nat -> outcome) :
  (forall m m' o, m <= m' -> run m = ODone o -> run m' = ODone o) ->
  forall n n' o o', run n = ODone o -> run n' = ODone o' -> o = o'.
Proof.
  intros M n n' o o' H1 H2.
  apply (M _ _ _ (Nat.le_max_l n n')) in H1. apply (M _ _ _ (Nat.le_max_r n n')) in H2. congruence.
Qed.
Lemma run_src_unique p n n' o o' : run_src n p = ODone o -> run_src n' p = ODone o' -> o = o'.
Proof. apply (mono_unique (fun n => run_src n p)). intros m m' x; apply run_src_mono. Qed.
Lemma run_go_unique g m m' o o' : run_go m g = ODone o -> run_go m' g = ODone o' -> o = o'.
Proof. apply (mono_unique (fun m => run_go m g)). intros n n' x; apply run_go_mono. Qed.

Theorem go_output_is_source_output_d d start p n out :
  pap_args_pure p -> run_src n p = ODone out ->
  forall m out', run_go m (compile_prog_d d start p) = ODone out' -> out' = out.
Proof.
  intros Hp R m out' G. destruct (compile_correct_eventually_d d start p Hp n out R) as (m0 & H).
  exact (run_go_unique _ _ _ _ _ G (H m0 (le_n _))).
Qed.
Theorem go_output_is_source_output p n out :
  pap_args_pure p -> run_src n p = ODone out ->
  forall m out', run_go m (compile_prog p) = ODone out' -> out' = out.
Proof. exact (go_output_is_source_output_d DFc 0 p n out). Qed.

(** the statement without [pap_args_pure] is false *)
Theorem compile_correct_full_refuted :
  ~ (forall p n out, wt p -> run_src n p = ODone out -> exists m, run_go m (compile_prog p) = ODone out).
Proof.
  intros F. destruct (F ex_effectful_pap _ _ ex_effectful_pap_wt ex_effectful_pap_src) as (m & G).
  pose proof (run_go_unique _ _ _ _ _ G ex_effectful_pap_go) as E.
  revert E. vm_compute. discriminate.
Qed.
