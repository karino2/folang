(** C03: what fc emits for a record, a union, a top-level function and a call into a package_info
    function has the shape the documentation gives (docs/specs/union.md, note.md, tutorial 4). The
    [doc_*] predicates state that shape about a list of Go declarations; they do not mention the
    emission functions. *)
From Coq Require Import List String Bool Arith.
From FoVerif Require Import Core.Decls.
Import ListNotations.
Open Scope string_scope.

(** a record is a struct with the same field names and mapped field types in order *)
Definition doc_record (r : recdef) (ds : list godecl) : Prop :=
  In (GStruct (rd_name r) (rd_tparams r) (rd_fields r)) ds.

(** a union U with case C is interface U plus struct U_C whose payload is field Value, built by
    New_U_C: a function when the case has a payload or U is generic, a package variable otherwise;
    every case struct implements the interface's marker method *)
Definition doc_case (u : uniondef) (marker : string) (c : string * option gotype) (ds : list godecl) : Prop :=
  let cs := ud_name u ++ "_" ++ fst c in
  In (GStruct cs (ud_tparams u) (match snd c with Some t => [("Value", t)] | None => [] end)) ds /\
  In (GMethod None cs (ud_tparams u) marker None) ds /\
  (match snd c, ud_tparams u with
   | None, [] => In (GVar ("New_" ++ cs) (Some (ud_name u))) ds
   | _, _ => exists res, In (GFunc ("New_" ++ cs) (ud_tparams u)
                                   (match snd c with Some t => [("v", t)] | None => [] end) (Some res)) ds
   end).

Definition doc_union (u : uniondef) (ds : list godecl) : Prop :=
  exists marker, In (GInterface (ud_name u) (ud_tparams u) marker) ds /\
                 forall c, In c (ud_cases u) -> doc_case u marker c ds.

(** a top-level let with parameters is a package func: parameters in order, a unit parameter is no
    parameter, a unit result is no result *)
Definition doc_func (f : fundef) (d : godecl) : Prop :=
  exists params, d = GFunc (fd_name f) (fd_tparams f) params (fd_result f) /\
    map fst params = map fst (filter (fun p => match snd p with Some _ => true | None => false end) (fd_params f)) /\
    map (fun p => Some (snd p)) params = filter (fun o => match o with Some _ => true | None => false end) (map snd (fd_params f)).

Theorem emit_record_matches_doc r : doc_record r (emit_record r).
Proof. unfold doc_record, emit_record. now left. Qed.

Lemma in_flat_map_case u c : In c (ud_cases u) -> forall d, In d (emit_case u c) -> In d (emit_union u).
Proof.
  intros Hc d Hd. unfold emit_union. right. apply in_or_app. right. apply in_or_app. right.
  apply in_flat_map. exists c. split; assumption.
Qed.

Theorem emit_union_matches_doc u : doc_union u (emit_union u).
Proof.
  exists (ud_name u ++ "_Union"). split; [now left|].
  intros [cn payload] Hc. unfold doc_case. cbn [fst snd]. split; [|split].
  - apply (in_flat_map_case u (cn, payload) Hc). cbn. now left.
  - unfold emit_union. right. apply in_or_app. left.
    apply in_map_iff. exists (cn, payload). split; [reflexivity|exact Hc].
  - (* the second declaration of the case is its constructor, in the form csIsVar selects *)
    pose proof (in_flat_map_case u (cn, payload) Hc _ (or_intror (or_introl eq_refl))) as H.
    unfold cs_is_var in H. destruct payload, (ud_tparams u); first [exact H|eexists; exact H].
Qed.

(** the constructor is a package variable exactly when the case has no payload and U is not generic *)
Theorem ctor_is_var_iff u cn payload :
  (exists t, In (GVar (ctor_name (ud_name u) cn) t) (emit_case u (cn, payload)))
  <-> payload = None /\ ud_tparams u = [].
Proof.
  unfold emit_case. split.
  - intros [t [H|[H|[]]]]; [discriminate|].
    destruct payload; destruct (ud_tparams u); cbn in H; try discriminate. auto.
  - intros [-> E]. rewrite E. cbn. eexists. right. left. reflexivity.
Qed.

Theorem emit_root_func_matches_doc f : doc_func f (emit_root_func f).
Proof.
  unfold doc_func, emit_root_func. exists (go_params (fd_params f)). split; [reflexivity|].
  unfold go_params. induction (fd_params f) as [|[n [t|]] ps [IH1 IH2]]; cbn; [auto| |auto].
  split; f_equal; assumption.
Qed.

Theorem unit_param_no_param f :
  Forall (fun p => snd p = None) (fd_params f) ->
  emit_root_func f = GFunc (fd_name f) (fd_tparams f) [] (fd_result f).
Proof.
  intros H. unfold emit_root_func. f_equal. unfold go_params.
  induction H as [|[n o] ps Hp _ IH]; cbn in *; [reflexivity|]. subst o. exact IH.
Qed.

Lemma rparams_length i ts : List.length (rparams i ts) = List.length ts.
Proof. revert i; induction ts as [|t ts IH]; intros i; cbn; [reflexivity|now rewrite IH]. Qed.

Lemma rparams_types i ts : map snd (rparams i ts) = ts.
Proof. revert i; induction ts as [|t ts IH]; intros i; cbn; [reflexivity|now rewrite IH]. Qed.

(** the callee receives all supplied arguments in source order, then the closure parameters (one per
    missing argument, with the missing parameter types, in order); it is called by the declared name,
    package-qualified unless the package is "_"; explicit type arguments are passed through *)
Theorem ext_call_args_in_order pkg name targs supplied missing result :
  let e := emit_ext_call pkg name targs supplied missing result in
  call_fn e = pi_full_name pkg name /\
  exists rs, call_args e = (map XArg supplied ++ map XVar rs)%list /\ List.length rs = List.length missing /\
  match missing with
  | [] => e = XCall (pi_full_name pkg name) targs (map XArg supplied)
  | _ => exists ps, e = XClosure ps result (XCall (pi_full_name pkg name) targs (map XArg supplied ++ map XVar rs)%list)
                    /\ map fst ps = rs /\ map snd ps = missing
  end.
Proof.
  unfold emit_ext_call. destruct missing as [|m ms].
  - cbn. split; [reflexivity|]. exists []. cbn. rewrite app_nil_r. auto.
  - set (rs := rparams 0 (m :: ms)). cbn [call_fn call_args]. split; [reflexivity|].
    exists (map fst rs).
    assert (E : map (fun p : string * gotype => XVar (fst p)) rs = map XVar (map fst rs))
      by (now rewrite map_map).
    rewrite E. split; [reflexivity|]. split.
    + rewrite map_length. apply rparams_length.
    + exists rs. split; [reflexivity|]. split; [reflexivity|apply rparams_types].
Qed.

Theorem qualified_unless_underscore pkg name :
  pi_full_name pkg name = if String.eqb pkg "_" then name else pkg ++ "." ++ name.
Proof. reflexivity. Qed.
