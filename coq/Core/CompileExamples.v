(** C01 — concrete programs: a non-vacuity witness for [compile_correct_partial] and the program that
    refutes the statement without [pap_args_pure] (finding (a): fc re-evaluates the arguments of a
    partial application at every call), and a program with record literals written out of declaration order.
    The ASTs are the elaborations of oracle/c01_tests/p11_demo.sexp, p04_effectful_pap.sexp and
    p12_record_order.sexp, printed by [C01 (coq <prog>)]. *)
From Coq Require Import List ZArith String Ascii Bool.
From FoVerif Require Import Core.Common Core.MiniFo Core.MiniGo Core.Compile Core.SimDefs Core.WfCheck.
Import ListNotations.
Open Scope list_scope.

Definition ex_demo : prog :=
{| p_unions := [("Shape"%string, [("Circle"%string, true); ("Rect"%string, true); ("Empty"%string, false)])];
   p_funs := [("say"%string, (["s"%string; "n"%string],
 (BDo (EExt LPrintln [(EVar "s"%string)])
 (BRet (EVar "n"%string) false)))); ("add"%string, (["a"%string; "b"%string],
 (BRet (EBin OAdd (EVar "a"%string) (EVar "b"%string)) false))); ("area"%string, (["s"%string],
 (BRet (EMatchU (EVar "s"%string) "Shape"%string [("Circle"%string, (Some "r"%string), (BRet (EBin OMul (EBin OMul (EVar "r"%string) (EVar "r"%string)) (EInt (3)%Z)) false)); ("Rect"%string, (Some "p"%string), (BDestr ["w"%string; "h"%string] (EVar "p"%string)
 (BRet (EBin OMul (EVar "w"%string) (EVar "h"%string)) false))); ("Empty"%string, None, (BRet (EInt (0)%Z) false))] None) false))); ("kind"%string, (["s"%string],
 (BRet (EMatchS (EVar "s"%string) [("a"%string, (BRet (EStr "first"%string) false))] (Some "other"%string) (BRet (EBin OSAdd (EVar "other"%string) (EStr "?"%string)) false)) false))); ("fact"%string, (["n"%string],
 (BRet (EIf (EBin OLe (EVar "n"%string) (EInt (0)%Z)) (BRet (EInt (1)%Z) false) (BRet (EBin OMul (EVar "n"%string) (ECall "fact"%string 0 false [(EBin OSub (EVar "n"%string) (EInt (1)%Z))])) false)) false)))];
   p_main := (BLet "inc"%string (ECall "add"%string 1 false [(EInt (1)%Z)])
 (BLet "xs"%string (ESlice [(EInt (3)%Z); (ECall "say"%string 0 false [(EStr "elem"%string); (EInt (1)%Z)]); (EInt (2)%Z)])
 (BLet "ys"%string (EPipeExt (EPipeExt (EVar "xs"%string) LMap [(EVar "inc"%string)] false) LFilter [(ELam ["v"%string] (BRet (EBin OGt (EVar "v"%string) (EInt (2)%Z)) false))] false)
 (BDo (EExt LPrintf1 [(EStr "%v
"%string); (EVar "ys"%string)])
 (BLet "total"%string (EExt LFold [(ELam ["acc"%string; "v"%string] (BRet (EBin OAdd (EVar "acc"%string) (EVar "v"%string)) false)); (EInt (0)%Z); (EVar "ys"%string)])
 (BLet "pt"%string (ERecord "Pt"%string ["X"%string; "Tag"%string] ["X"%string; "Tag"%string] [(EVar "total"%string); (ECall "kind"%string 0 false [(EStr "b"%string)])])
 (BLet "tag"%string (EField (EVar "pt"%string) "Tag"%string)
 (BLet "px"%string (EField (EVar "pt"%string) "X"%string)
 (BDo (EExt LPrintln [(EInterp [(inl "total="%string); (inr "px"%string); (inl " tag="%string); (inr "tag"%string)])])
 (BLet "shapes"%string (ESlice [(ECtor "Shape"%string "Circle"%string (Some (EInt (2)%Z))); (ECtor "Shape"%string "Rect"%string (Some (ETuple [(EInt (2)%Z); (EInt (5)%Z)]))); (ECtor "Shape"%string "Empty"%string None)])
 (BDo (EPipeExt (EExt LMap [(EVar "area"%string); (EVar "shapes"%string)]) LPrintf1 [(EStr "%v
"%string)] true)
 (BDo (EIf (EBin OAnd (EBin OGt (EVar "total"%string) (EInt (100)%Z)) (EEq false (ECall "say"%string 0 false [(EStr "not printed"%string); (EInt (1)%Z)]) (EInt (1)%Z))) (BRet (EExt LPrintln [(EStr "big"%string)]) true) (BRet (EExt LPrintln [(EStr "small"%string)]) true))
 (BDo (EExt LIter [(ELam ["q"%string] (BRet (EExt LPrintf1 [(EStr "%d;"%string); (EVar "q"%string)]) true)); (EVar "ys"%string)])
 (BRet (EExt LPrintf1 [(EStr "%d
"%string); (ECall "fact"%string 0 false [(EInt (5)%Z)])]) true)))))))))))))) |}.

Definition ex_effectful_pap : prog :=
{| p_unions := [];
   p_funs := [("say"%string, (["s"%string; "n"%string],
 (BDo (EExt LPrintln [(EVar "s"%string)])
 (BRet (EVar "n"%string) false)))); ("add"%string, (["a"%string; "b"%string],
 (BRet (EBin OAdd (EVar "a"%string) (EVar "b"%string)) false)))];
   p_main := (BLet "g"%string (ECall "add"%string 1 false [(ECall "say"%string 0 false [(EStr "arg"%string); (EInt (1)%Z)])])
 (BDo (EExt LPrintln [(EStr "made"%string)])
 (BDo (EExt LPrintf1 [(EStr "%d
"%string); (ECall "g"%string 0 false [(EInt (10)%Z)])])
 (BDo (EExt LPrintf1 [(EStr "%d
"%string); (ECall "g"%string 0 false [(EInt (20)%Z)])])
 (BRet (EExt LPrintf1 [(EStr "%v
"%string); (EExt LMap [(EVar "g"%string); (ESlice [(EInt (1)%Z); (EInt (2)%Z)])])]) true))))) |}.

(** record literals written in an order other than the declaration's, with effectful initialisers, compared by [=] *)
Definition ex_record_order : prog :=
{| p_unions := [];
   p_funs := [("noisy"%string, (["n"%string],
 (BDo (EExt LPrintf1 [(EStr "n%d
"%string); (EVar "n"%string)])
 (BRet (EVar "n"%string) false)))); ("total"%string, (["o"%string],
 (BRet (EBin OAdd (EField (EVar "o"%string) "Id"%string) (EField (EVar "o"%string) "Qty"%string)) false)))];
   p_main := (BLet "a"%string (ERecord "Order"%string ["Id"%string; "Item"%string; "Qty"%string] ["Qty"%string; "Item"%string; "Id"%string] [(ECall "noisy"%string 0 false [(EInt (1)%Z)]); (EStr "x"%string); (ECall "noisy"%string 0 false [(EInt (2)%Z)])])
 (BLet "b"%string (ERecord "Order"%string ["Id"%string; "Item"%string; "Qty"%string] ["Id"%string; "Item"%string; "Qty"%string] [(EInt (2)%Z); (EStr "x"%string); (EInt (1)%Z)])
 (BLet "c"%string (ERecord "Order"%string ["Id"%string; "Item"%string; "Qty"%string] ["Item"%string; "Id"%string; "Qty"%string] [(EStr "y"%string); (ECall "noisy"%string 0 false [(EInt (3)%Z)]); (ECall "noisy"%string 0 false [(EInt (4)%Z)])])
 (BDo (EExt LPrintf1 [(EStr "%v
"%string); (EEq false (EVar "a"%string) (EVar "b"%string))])
 (BDo (EExt LPrintf1 [(EStr "%v
"%string); (EEq true (EVar "a"%string) (EVar "c"%string))])
 (BDo (EExt LPrintf1 [(EStr "%v
"%string); (EEq false (ERecord "Order"%string ["Id"%string; "Item"%string; "Qty"%string] ["Qty"%string; "Id"%string; "Item"%string] [(EInt (4)%Z); (EInt (3)%Z); (EStr "y"%string)]) (EVar "c"%string))])
 (BDo (EExt LPrintf1 [(EStr "%d
"%string); (EField (EVar "a"%string) "Id"%string)])
 (BDo (EExt LPrintf1 [(EStr "%d
"%string); (EField (EVar "a"%string) "Qty"%string)])
 (BDo (EExt LPrintln [(EField (EVar "c"%string) "Item"%string)])
 (BLet "mk"%string (ECall "total"%string 0 false [(ERecord "Order"%string ["Id"%string; "Item"%string; "Qty"%string] ["Qty"%string; "Id"%string; "Item"%string] [(ECall "noisy"%string 0 false [(EInt (10)%Z)]); (ECall "noisy"%string 0 false [(EInt (20)%Z)]); (EStr "z"%string)])])
 (BRet (EExt LPrintf1 [(EStr "%d
"%string); (EVar "mk"%string)]) true))))))))))) |}.

Lemma ex_demo_pure : pap_args_pure ex_demo.
Proof. apply (wfp_b_sound true 40). vm_compute. reflexivity. Qed.
Lemma ex_demo_wt : wt ex_demo.
Proof. apply (wfp_b_sound false 40). vm_compute. reflexivity. Qed.

Definition nl : string := String "010" EmptyString.

Lemma ex_demo_runs :
  run_src 100 ex_demo =
  ODone ("elem" ++ nl ++ "[4 3]" ++ nl ++ "total=7 tag=b?" ++ nl ++ "[12 10 0]" ++ nl ++ "small" ++ nl ++ "4;3;120" ++ nl)%string.
Proof. vm_compute. reflexivity. Qed.
Lemma ex_demo_go_runs :
  run_go 200 (compile_prog ex_demo) =
  ODone ("elem" ++ nl ++ "[4 3]" ++ nl ++ "total=7 tag=b?" ++ nl ++ "[12 10 0]" ++ nl ++ "small" ++ nl ++ "4;3;120" ++ nl)%string.
Proof. vm_compute. reflexivity. Qed.

(** the partial application [add (say "arg" 1)] prints once in the source, at every call in the emitted Go *)
Lemma ex_effectful_pap_wt : wt ex_effectful_pap.
Proof. apply (wfp_b_sound false 40). vm_compute. reflexivity. Qed.
Lemma ex_effectful_pap_src :
  run_src 100 ex_effectful_pap =
  ODone ("arg" ++ nl ++ "made" ++ nl ++ "11" ++ nl ++ "21" ++ nl ++ "[2 3]" ++ nl)%string.
Proof. vm_compute. reflexivity. Qed.
Lemma ex_effectful_pap_go :
  run_go 200 (compile_prog ex_effectful_pap) =
  ODone ("made" ++ nl ++ "arg" ++ nl ++ "11" ++ nl ++ "arg" ++ nl ++ "21" ++ nl ++ "arg" ++ nl ++ "arg" ++ nl ++ "[2 3]" ++ nl)%string.
Proof. vm_compute. reflexivity. Qed.

Lemma ex_record_order_pure : pap_args_pure ex_record_order.
Proof. apply (wfp_b_sound true 40). vm_compute. reflexivity. Qed.
Lemma ex_record_order_runs :
  run_src 100 ex_record_order =
  ODone ("n1" ++ nl ++ "n2" ++ nl ++ "n3" ++ nl ++ "n4" ++ nl ++ "true" ++ nl ++ "true" ++ nl ++ "true" ++ nl ++
         "2" ++ nl ++ "1" ++ nl ++ "y" ++ nl ++ "n10" ++ nl ++ "n20" ++ nl ++ "30" ++ nl)%string.
Proof. vm_compute. reflexivity. Qed.
Lemma ex_record_order_go_runs : run_go 200 (compile_prog ex_record_order) = run_src 100 ex_record_order.
Proof. rewrite ex_record_order_runs. vm_compute. reflexivity. Qed.
