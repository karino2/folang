(** C02 — proofs about Core/Resolver.v (fc's own resolver, transcribed), for every enumeration order of
    dict.Keys that keeps membership and every variable-name comparison.
    Soundness: if no clash was silently ignored, the loop ended and every variable resolves (no cycle), the
    induced substitution unifies all the equations.  Most general: on unifiable well-formed equations the
    resolver never panics or ignores a clash, and every unifier factors through what it resolves.  Then the
    agreement with Robinson unification (Core/Unify.v), and what goes wrong: an ignored clash, a panic,
    a loop that never ends. *)
From Coq Require Import Arith Lia Bool List.
From FoVerif Require Import Core.Unify Core.UnifyProofs Core.Infer Core.InferProofs Core.Resolver.
Import ListNotations.

Definition sat (th:nat->ty) : list rel -> Prop := Forall (fun rl => th (fst rl) = app th (snd rl)).

Lemma ty_eqb_eq a : forall b, ty_eqb a b = true <-> a = b.
Proof. induction a as [x|x|a1 IH1 a2 IH2]; intros [y|y|b1 b2]; cbn; try (split; [discriminate|intros E; discriminate E]).
  - rewrite Nat.eqb_eq. split; congruence.
  - rewrite Nat.eqb_eq. split; congruence.
  - rewrite andb_true_iff, IH1, IH2. split; [intros (-> & ->); reflexivity|intros E; injection E; auto]. Qed.

(** how compositeTp combines the answers for a constructor's arguments *)
Definition cmap (F:ty->ty) (c:cres) : cres :=
  match c with COk t R g => COk (F t) R g | CPanic => CPanic end.
Definition cseq (F:ty->ty->ty) (c1 c2:cres) : cres :=
  match c1 with
  | COk t1 R1 g1 => match c2 with COk t2 R2 g2 => COk (F t1 t2) (R1 ++ R2) (g1 || g2) | CPanic => CPanic end
  | CPanic => CPanic end.

Lemma set_add_in k s x : In x (set_add k s) <-> x = k \/ In x s.
Proof. unfold set_add. destruct (existsb (Nat.eqb k) s) eqn:E.
  - apply existsb_eqb_In in E. split; [auto|intros [->|I]; auto].
  - rewrite in_app_iff. cbn. intuition. Qed.

Lemma fold_set_add_in ks : forall s x, In x (fold_left (fun s k => set_add k s) ks s) <-> In x ks \/ In x s.
Proof. induction ks as [|k ks IH]; intros s x; cbn [fold_left]; [cbn; tauto|].
  rewrite IH, set_add_in. cbn. intuition. Qed.

Section Proofs.
Variable later : nat -> nat -> bool.
Variable enum : list nat -> list nat.
Hypothesis enum_ok : forall l x, In x (enum l) <-> In x l.

Notation ctp := (ctp later).
Notation clist := (clist later).

Lemma ctp_node c b1 c' b2 : ctp (TNode (TAtom c) b1) (TNode (TAtom c') b2) =
  if Nat.eqb c' a_slice then
    if Nat.eqb c a_slice then cmap (TNode (TAtom a_slice)) (ctp b1 b2) else CPanic
  else if Nat.eqb c' a_fun then
    if Nat.eqb c a_fun then
      match b1, b2 with
      | TNode al1 r1, TNode al2 r2 =>
          cseq (fun ta tr => TNode (TAtom a_fun) (TNode ta tr)) (clist al1 al2) (ctp r1 r2)
      | _, _ => CPanic
      end
    else CPanic
  else if Nat.eqb c' a_tuple then
    if Nat.eqb c a_tuple then cmap (TNode (TAtom a_tuple)) (clist b1 b2) else CPanic
  else if Nat.leb 8 c' then
    if Nat.eqb c c' && Nat.eqb (spine_len b1) (spine_len b2)
    then cmap (fun _ => TNode (TAtom c) b1) (clist b1 b2) else COk (TNode (TAtom c) b1) [] true
  else CPanic.
Proof. reflexivity. Qed.

Lemma clist_node a l' b r' : clist (TNode a l') (TNode b r') = cseq TNode (ctp a b) (clist l' r').
Proof. reflexivity. Qed.

Definition ans_sound (th:nat->ty) (l r:ty) (c:cres) : Prop :=
  forall t R, c = COk t R false -> sat th R -> app th l = app th r /\ app th t = app th l.

Lemma sound_panic th l r : ans_sound th l r CPanic.
Proof. intros t R E. discriminate E. Qed.
Lemma sound_flagged th l r t R : ans_sound th l r (COk t R true).
Proof. intros t' R' E. discriminate E. Qed.
Lemma sound_bind th l r t x d :
  (th x = app th d -> app th l = app th r /\ app th t = app th l) -> ans_sound th l r (COk t [(x,d)] false).
Proof. intros H t' R E S. injection E as <- <-. exact (H (Forall_inv S)). Qed.

Lemma sound_cmap th F l r L L' c : ans_sound th l r c ->
  (app th l = app th r -> app th L = app th L') ->
  (forall t, app th t = app th l -> app th (F t) = app th L) -> ans_sound th L L' (cmap F c).
Proof. intros H HL HF t R E S. destruct c as [t0 R0 g0|]; [|discriminate]. injection E as <- <- ->.
  destruct (H _ _ eq_refl S); auto. Qed.

Lemma sound_cseq th F l1 r1 l2 r2 L L' c1 c2 : ans_sound th l1 r1 c1 -> ans_sound th l2 r2 c2 ->
  (app th l1 = app th r1 -> app th l2 = app th r2 -> app th L = app th L') ->
  (forall t1 t2, app th t1 = app th l1 -> app th t2 = app th l2 -> app th (F t1 t2) = app th L) ->
  ans_sound th L L' (cseq F c1 c2).
Proof. intros H1 H2 HL HF t R E S. destruct c1 as [t1 R1 g1|]; [|discriminate]. destruct c2 as [t2 R2 g2|]; [|discriminate].
  injection E as <- <- G. apply orb_false_iff in G. destruct G as (-> & ->). apply Forall_app in S. destruct S as (S1 & S2).
  destruct (H1 _ _ eq_refl S1), (H2 _ _ eq_refl S2); auto. Qed.

(* by induction on the size: the function case of compositeTp recurses into grandchildren of [l] *)
Lemma ctp_sound_all th : forall n l, size l <= n ->
  forall r, ans_sound th l r (ctp l r) /\ ans_sound th l r (clist l r).
Proof.
  induction n as [|n IH]; intros l Hs r; [destruct l; cbn in Hs; lia|].
  destruct l as [x|a|hl b1].
  - split; [|apply sound_panic]. cbn. destruct r as [y|b|r1 r2]; [|apply sound_bind; cbn; auto ..].
    destruct (Nat.eqb_spec x y) as [->|_]; [intros t R [= <- <-] _; auto|].
    destruct (later x y); apply sound_bind; cbn; auto.
  - split.
    + destruct r as [y|b|[|c'|] r2]; try apply sound_panic.
      * apply sound_bind; cbn; auto.
      * intros t R [= <- <- E] _. apply negb_false_iff, (ty_eqb_eq (TAtom a) (TAtom b)) in E. rewrite E. auto.
      * cbn [Resolver.ctp]. destruct (Nat.leb 8 c'); [apply sound_flagged|apply sound_panic].
    + destruct r as [|b|]; try apply sound_panic. cbn.
      destruct (Nat.eqb_spec a b) as [->|_]; [|apply sound_panic]. intros t R [= <- <-] _; auto.
  - assert (Sh : size hl <= n) by (cbn in Hs; lia). assert (Sb : size b1 <= n) by (cbn in Hs; lia).
    split.
    + destruct r as [y|b|[|c'|] b2]; [apply sound_bind; cbn; auto|apply sound_flagged|apply sound_panic| |apply sound_panic].
      destruct hl as [|c|]; [apply sound_panic| |apply sound_panic]. rewrite ctp_node.
      destruct (Nat.eqb_spec c' a_slice) as [->|_].
      { destruct (Nat.eqb_spec c a_slice) as [->|_]; [|apply sound_panic].
        apply sound_cmap with b1 b2; [apply IH; exact Sb|cbn; congruence ..]. }
      destruct (Nat.eqb_spec c' a_fun) as [->|_].
      { destruct (Nat.eqb_spec c a_fun) as [->|_]; [|apply sound_panic].
        destruct b1 as [| |al1 r1], b2 as [| |al2 r2]; try apply sound_panic. cbn in Sb.
        apply sound_cseq with al1 al2 r1 r2; [apply IH; lia|apply IH; lia|cbn; congruence ..]. }
      destruct (Nat.eqb_spec c' a_tuple) as [->|_].
      { destruct (Nat.eqb_spec c a_tuple) as [->|_]; [|apply sound_panic].
        apply sound_cmap with b1 b2; [apply IH; exact Sb|cbn; congruence ..]. }
      destruct (Nat.leb 8 c'); [|apply sound_panic].
      destruct (Nat.eqb_spec c c') as [->|_]; [|apply sound_flagged].
      destruct (Nat.eqb _ _); [|apply sound_flagged].
      apply sound_cmap with b1 b2; [apply IH; exact Sb|cbn; congruence|reflexivity].
    + destruct r as [|?|a2 r']; [apply sound_panic ..|]. rewrite clist_node.
      apply sound_cseq with hl a2 b1 r'; [apply IH; exact Sh|apply IH; exact Sb|cbn; congruence ..].
Qed.

Lemma ctp_sound l r t R : ctp l r = COk t R false ->
  forall th, sat th R -> app th l = app th r /\ app th t = app th l.
Proof. intros E th. exact (proj1 (ctp_sound_all th (size l) l (le_n _) r) t R E). Qed.

Definition consistent (st:resolver) : Prop :=
  forall v, In v (eset (rs_lookup st v)) /\
            forall w, In w (eset (rs_lookup st v)) -> rs_lookup st w = rs_lookup st v.

Lemma consistent_nil : consistent [].
Proof. intros v. unfold rs_lookup; cbn. split; [auto|]. intros w [<-|[]]. reflexivity. Qed.

Lemma rs_find_register_aux e ks : forall st w,
  rs_find (fold_left (fun s k => (k, e) :: s) ks st) w =
  if existsb (Nat.eqb w) ks then Some e else rs_find st w.
Proof. induction ks as [|k ks IH]; intros st w; cbn [fold_left existsb]; auto.
  rewrite IH. cbn [rs_find]. destruct (existsb (Nat.eqb w) ks); [rewrite orb_true_r; reflexivity|].
  rewrite orb_false_r. reflexivity. Qed.

Lemma rs_lookup_register st e w :
  rs_lookup (rs_register enum st e) w = if existsb (Nat.eqb w) (eset e) then e else rs_lookup st w.
Proof. unfold rs_lookup, rs_register. rewrite rs_find_register_aux.
  assert (EQ : existsb (Nat.eqb w) (enum (eset e)) = existsb (Nat.eqb w) (eset e))
    by (apply eq_true_iff_eq; rewrite !existsb_eqb_In; apply enum_ok).
  rewrite EQ. destruct (existsb (Nat.eqb w) (eset e)); reflexivity. Qed.

Lemma eqs_union_in s1 s2 x : In x (eqs_union enum s1 s2) <-> In x s1 \/ In x s2.
Proof. unfold eqs_union. rewrite !fold_set_add_in, !enum_ok. cbn. split; [intros [I|[I|[]]]|intros [I|I]]; auto. Qed.

Definition fix_of (rho:nat->ty) (st:resolver) : Prop :=
  forall v, rho v = app rho (eres (rs_lookup st v)).

Lemma consistent_register st e :
  consistent st ->
  (forall w, In w (eset e) -> forall u, In u (eset (rs_lookup st w)) -> In u (eset e)) ->
  consistent (rs_register enum st e).
Proof.
  intros C CL v. rewrite rs_lookup_register.
  destruct (existsb (Nat.eqb v) (eset e)) eqn:E.
  - apply existsb_eqb_In in E. split; [exact E|]. intros w I. rewrite rs_lookup_register.
    apply existsb_eqb_In in I. rewrite I. reflexivity.
  - destruct (C v) as (A & B). split; [exact A|]. intros w I. rewrite rs_lookup_register.
    destruct (existsb (Nat.eqb w) (eset e)) eqn:E2; [|auto].
    exfalso. apply existsb_eqb_In in E2.
    assert (In v (eset e)).
    { apply (CL w E2). rewrite (B w I). exact A. }
    apply existsb_eqb_In in H. congruence.
Qed.

Lemma union_closed st x y : consistent st ->
  forall w, In w (eqs_union enum (eset (rs_lookup st x)) (eset (rs_lookup st y))) ->
  forall u, In u (eset (rs_lookup st w)) -> In u (eqs_union enum (eset (rs_lookup st x)) (eset (rs_lookup st y))).
Proof. intros C w Iw u Iu. apply eqs_union_in. apply eqs_union_in in Iw.
  destruct Iw as [Iw|Iw]; [left|right]; rewrite (proj2 (C _) w Iw) in Iu; exact Iu. Qed.

Lemma var_or_not (d:ty) : (exists y, d = TVar y) \/ (forall y, d <> TVar y).
Proof. destruct d; [left; eauto|right; discriminate ..]. Qed.

Lemma update_one_var st x y : update_one later enum st (x, TVar y) =
  match ctp (eres (rs_lookup st x)) (eres (rs_lookup st y)) with
  | COk t R g =>
      UOk (rs_register enum st (mkEI (eqs_union enum (eset (rs_lookup st x)) (eset (rs_lookup st y))) t)) R g
  | CPanic => UPanic end.
Proof. reflexivity. Qed.

Lemma update_one_nonvar st x d : (forall y, d <> TVar y) -> update_one later enum st (x, d) =
  match ctp (eres (rs_lookup st x)) d with
  | COk t R g =>
      match R with [] => UOk st [] g | _ => UOk (rs_register enum st (mkEI (eset (rs_lookup st x)) t)) R g end
  | CPanic => UPanic end.
Proof. intros N. destruct d; [destruct (N _ eq_refl)|reflexivity ..]. Qed.

Lemma register_fix st e rho : fix_of rho (rs_register enum st e) ->
  (forall w, In w (eset e) -> app rho (eres e) = app rho (eres (rs_lookup st w))) ->
  fix_of rho st /\ forall w, In w (eset e) -> rho w = app rho (eres e).
Proof.
  intros F H.
  assert (FX : forall w, In w (eset e) -> rho w = app rho (eres e)).
  { intros w I. rewrite (F w), rs_lookup_register. apply existsb_eqb_In in I. rewrite I. reflexivity. }
  split; [|exact FX]. intros w. destruct (existsb (Nat.eqb w) (eset e)) eqn:E.
  - apply existsb_eqb_In in E. rewrite (FX w E). auto.
  - rewrite (F w), rs_lookup_register, E. reflexivity.
Qed.

Lemma update_one_sound st rl st1 R :
  consistent st -> update_one later enum st rl = UOk st1 R false ->
  consistent st1 /\
  forall rho, sat rho R -> fix_of rho st1 ->
    rho (fst rl) = app rho (snd rl) /\ fix_of rho st.
Proof.
  intros C H. destruct rl as (x, d). cbn [fst snd]. destruct (C x) as (Ix & Cx).
  destruct (var_or_not d) as [(y & ->)|NV].
  - rewrite update_one_var in H. destruct (C y) as (Iy & Cy).
    destruct (ctp (eres (rs_lookup st x)) (eres (rs_lookup st y))) as [t R0 g|] eqn:CT; [|discriminate].
    injection H as <- <- ->. split.
    + apply consistent_register; [exact C|]. apply union_closed, C.
    + intros rho S F. destruct (ctp_sound _ _ _ _ CT rho S) as (A & B).
      destruct (register_fix _ _ rho F) as (F0 & FX); cbn [eset eres] in *.
      { intros w Iw. apply eqs_union_in in Iw.
        destruct Iw as [Iw|Iw]; [rewrite (Cx w Iw)|rewrite (Cy w Iw)]; congruence. }
      split; [|exact F0]. cbn [app]. rewrite !FX by (apply eqs_union_in; auto). reflexivity.
  - rewrite (update_one_nonvar _ _ _ NV) in H.
    destruct (ctp (eres (rs_lookup st x)) d) as [t [|r0 R0] g|] eqn:CT; try discriminate; injection H as <- <- ->.
    + split; [exact C|]. intros rho S F. destruct (ctp_sound _ _ _ _ CT rho S) as (A & B).
      split; [|exact F]. rewrite (F x). exact A.
    + split.
      * apply consistent_register; auto. cbn [eset]. intros w Iw u Iu. rewrite (Cx w Iw) in Iu. exact Iu.
      * intros rho S F. destruct (ctp_sound _ _ _ _ CT rho S) as (A & B).
        destruct (register_fix _ _ rho F) as (F0 & FX); cbn [eset eres] in *.
        { intros w Iw. rewrite (Cx w Iw). exact B. }
        split; [|exact F0]. rewrite (FX x Ix), B. exact A.
Qed.

Lemma update_round_sound : forall rels st st1 R,
  consistent st -> update_round later enum st rels = UOk st1 R false ->
  consistent st1 /\ forall rho, sat rho R -> fix_of rho st1 -> sat rho rels /\ fix_of rho st.
Proof.
  induction rels as [|rl rest IH]; intros st st1 R C H; cbn in H.
  - injection H as <- <-. split; [exact C|]. intros rho _ F. split; [constructor|exact F].
  - destruct (update_one later enum st rl) as [sa Ra ga|] eqn:U1; [|discriminate].
    destruct (update_round later enum sa rest) as [sb Rb gb|] eqn:U2; [|discriminate].
    injection H as <- <- G. apply orb_false_iff in G. destruct G as (-> & ->).
    destruct (update_one_sound _ _ _ _ C U1) as (Ca & Ha).
    destruct (IH _ _ _ Ca U2) as (Cb & Hb).
    split; [exact Cb|]. intros rho S F. apply Forall_app in S. destruct S as (Sa & Sb).
    destruct (Hb rho Sb F) as (SR & Fa). destruct (Ha rho Sa Fa) as (E & F0).
    split; [constructor; assumption|exact F0].
Qed.

Lemma update_resolver_sound : forall n st rels st',
  consistent st -> update_resolver later enum n st rels = LDone st' false ->
  consistent st' /\ forall rho, fix_of rho st' -> sat rho rels /\ fix_of rho st.
Proof.
  induction n as [|n IH]; intros st rels st' C H; cbn in H; [discriminate|].
  destruct (update_round later enum st rels) as [s1 R1 g1|] eqn:U; [|discriminate].
  destruct R1 as [|r1 R1].
  - injection H as <- ->. destruct (update_round_sound _ _ _ _ C U) as (C1 & H1).
    split; [exact C1|]. intros rho F. apply H1; [constructor|exact F].
  - destruct (update_resolver later enum n s1 (r1 :: R1)) as [s2 g2| |] eqn:U2; try discriminate.
    injection H as <- G. apply orb_false_iff in G. destruct G as (-> & ->).
    destruct (update_round_sound _ _ _ _ C U) as (C1 & H1).
    destruct (IH _ _ _ C1 U2) as (C2 & H2).
    split; [exact C2|]. intros rho F. destruct (H2 rho F) as (S & F1). apply H1; assumption.
Qed.

Lemma trans_tv_ok f t a : trans_tv f t = ROk a ->
  (forall w, occurs w t = true -> exists tw, f w = ROk tw) /\
  a = app (fun w => match f w with ROk tw => tw | _ => TVar w end) t.
Proof. revert a. induction t as [x|c|t1 IH1 t2 IH2]; intros a H; cbn in H.
  - split; [intros w O; cbn in O; apply Nat.eqb_eq in O; subst; eauto|cbn; rewrite H; reflexivity].
  - injection H as <-. split; [intros w O; discriminate|reflexivity].
  - destruct (trans_tv f t1) as [a1| |] eqn:E1; try discriminate.
    destruct (trans_tv f t2) as [a2| |] eqn:E2; try discriminate. injection H as <-.
    destruct (IH1 _ eq_refl) as (A1 & B1). destruct (IH2 _ eq_refl) as (A2 & B2). split.
    + intros w O. cbn in O. apply orb_true_iff in O. destruct O; auto.
    + cbn. congruence. Qed.

Lemma resolve_S n p st x : resolve (S n) p st x =
  if existsb (Nat.eqb x) p then RCycle
  else if ty_eqb (eres (rs_lookup st x)) (TVar x) then ROk (TVar x)
  else trans_tv (resolve n (x :: p) st) (eres (rs_lookup st x)).
Proof. cbn. destruct (existsb _ p); [reflexivity|]. destruct (eres (rs_lookup st x)) as [y| |]; try reflexivity.
  cbn. destruct (Nat.eqb_spec y x) as [->|_]; reflexivity. Qed.

Lemma resolve_det st : forall n m p q x a b,
  resolve n p st x = ROk a -> resolve m q st x = ROk b -> a = b.
Proof.
  induction n as [|n IH]; intros m p q x a b Ha Hb; [discriminate|]. destruct m as [|m]; [discriminate|].
  rewrite resolve_S in Ha, Hb.
  destruct (existsb _ p); [discriminate|]. destruct (existsb _ q); [discriminate|].
  destruct (ty_eqb _ _); [congruence|].
  destruct (trans_tv_ok _ _ _ Ha) as (Fa & ->), (trans_tv_ok _ _ _ Hb) as (Gb & ->). apply app_ext_vars. intros w O.
  destruct (Fa w O) as (u & U), (Gb w O) as (v & V). rewrite U, V. eapply IH; eauto.
Qed.

Definition induced (m:nat) (st:resolver) (v:nat) : ty :=
  match resolve m [] st v with ROk t => t | _ => TVar v end.

Lemma induced_fix m st : (forall v, exists t, resolve m [] st v = ROk t) -> fix_of (induced m st) st.
Proof.
  intros ALL v. unfold induced at 1. destruct (ALL v) as (t & Hv). rewrite Hv.
  destruct m as [|m]; [discriminate Hv|]. pose proof Hv as Hv0. rewrite resolve_S in Hv. cbn [existsb] in Hv.
  destruct (ty_eqb _ _) eqn:E.
  - apply ty_eqb_eq in E. injection Hv as <-. rewrite E. cbn. unfold induced. rewrite Hv0. reflexivity.
  - destruct (trans_tv_ok _ _ _ Hv) as (A & ->). apply app_ext_vars. intros w O.
    destruct (A w O) as (tw & Hw). rewrite Hw. unfold induced. destruct (ALL w) as (tw' & Hw'). rewrite Hw'.
    eapply resolve_det; eauto.
Qed.

Lemma rels_of_sound : forall es R, rels_of later es = Some (R, false) ->
  forall th, sat th R -> unifies th es.
Proof.
  induction es as [|(l,r) es IH]; intros R H th S; cbn in H.
  - apply allp_nil.
  - unfold unify_type in H. destruct (ctp l r) as [t R1 g1|] eqn:C; [|discriminate].
    destruct (rels_of later es) as [(R2, g2)|] eqn:RE; [|discriminate].
    injection H as <- G. apply orb_false_iff in G. destruct G as (-> & ->).
    apply Forall_app in S. destruct S as (S1 & S2).
    apply allp_cons. split; [apply (ctp_sound _ _ _ _ C th S1)|exact (IH _ eq_refl th S2)].
Qed.

Theorem resolver_sound : forall n m es st,
  solve later enum n es = SSolved st false ->
  (forall v, exists t, resolve m [] st v = ROk t) ->
  unifies (induced m st) es.
Proof.
  intros n m es st H ALL. unfold solve in H.
  destruct (rels_of later es) as [(R, g)|] eqn:RE; [|discriminate].
  destruct (update_resolver later enum n [] R) as [s1 g1| |] eqn:U; try discriminate.
  injection H as <- G. apply orb_false_iff in G. destruct G as (-> & ->).
  destruct (update_resolver_sound _ _ _ _ consistent_nil U) as (_ & HS).
  destruct (HS _ (induced_fix m s1 ALL)) as (S & _).
  exact (rels_of_sound _ _ RE _ S).
Qed.

(** well-formed types: variables stand only in type positions (never in place of an argument
    spine or of a constructor head) *)
Fixpoint wf (t:ty) : bool :=
  match t with
  | TVar _ => true
  | TAtom a => Nat.eqb a a_int || Nat.eqb a a_string || Nat.eqb a a_bool || Nat.eqb a a_float
  | TNode (TAtom c) b =>
      if Nat.eqb c a_slice then wf b
      else if Nat.eqb c a_tuple then wf_spine b
      else if Nat.eqb c a_fun then match b with TNode al r => wf_spine al && wf r | _ => false end
      else if Nat.leb 8 c then wf_spine b
      else false
  | TNode _ _ => false
  end
with wf_spine (t:ty) : bool :=
  match t with
  | TAtom a => Nat.eqb a a_nil
  | TNode a r => wf a && wf_spine r
  | TVar _ => false
  end.

Definition wf_rels : list rel -> Prop := Forall (fun rl => wf (snd rl) = true).

Lemma spine_len_app th b : wf_spine b = true -> spine_len (app th b) = spine_len b.
Proof. induction b as [x|a|b1 _ b2 IH]; cbn; intros W; try discriminate; auto.
  apply andb_true_iff in W. destruct W. f_equal. auto. Qed.

Lemma wf_node_head hl b : wf (TNode hl b) = true -> exists c, hl = TAtom c.
Proof. destruct hl; cbn; try discriminate. eauto. Qed.

Definition ans_complete (th:nat->ty) (wfp:ty->bool) (l:ty) (c:cres) : Prop :=
  exists t R, c = COk t R false /\ sat th R /\ app th t = app th l /\ wfp t = true /\ wf_rels R.

Lemma complete_same th wfp l : wfp l = true -> ans_complete th wfp l (COk l [] false).
Proof. exists l, []. repeat split; auto; constructor. Qed.
Lemma complete_bind th l x d : th x = app th d -> app th d = app th l -> wf d = true ->
  ans_complete th wf l (COk d [(x,d)] false).
Proof. exists d, [(x,d)]. repeat split; auto; repeat constructor; assumption. Qed.

Lemma complete_cmap th w w' F l L c : ans_complete th w l c ->
  (forall t, w t = true -> app th t = app th l -> app th (F t) = app th L /\ w' (F t) = true) ->
  ans_complete th w' L (cmap F c).
Proof. intros (t & R & -> & S & A & W & WR) HF. destruct (HF t W A). exists (F t), R. repeat split; auto. Qed.

Lemma complete_cseq th w1 w2 w F l1 l2 L c1 c2 : ans_complete th w1 l1 c1 -> ans_complete th w2 l2 c2 ->
  (forall t1 t2, w1 t1 = true -> w2 t2 = true -> app th t1 = app th l1 -> app th t2 = app th l2 ->
     app th (F t1 t2) = app th L /\ w (F t1 t2) = true) ->
  ans_complete th w L (cseq F c1 c2).
Proof. intros (t1 & R1 & -> & S1 & A1 & W1 & WR1) (t2 & R2 & -> & S2 & A2 & W2 & WR2) HF.
  destruct (HF t1 t2 W1 W2 A1 A2). exists (F t1 t2), (R1 ++ R2). repeat split; auto; apply Forall_app; auto. Qed.

Lemma ctp_complete_all th : forall n l, size l <= n -> forall r, app th l = app th r ->
  (wf l = true -> wf r = true -> ans_complete th wf l (ctp l r)) /\
  (wf_spine l = true -> wf_spine r = true -> ans_complete th wf_spine l (clist l r)).
Proof.
  induction n as [|n IH]; intros l Hs r E; [destruct l; cbn in Hs; lia|].
  destruct l as [x|a|hl b1].
  - split; [|discriminate]. intros _ Wr. cbn [Resolver.ctp].
    destruct r as [y|b|r1 r2]; [|apply complete_bind; auto ..].
    destruct (Nat.eqb x y); [apply complete_same; reflexivity|].
    destruct (later x y); apply complete_bind; cbn in *; congruence.
  - split; intros Wl Wr.
    + destruct r as [y|b|r1 r2]; [apply complete_bind; cbn in *; congruence| |discriminate E].
      injection E as ->. cbn. rewrite Nat.eqb_refl. apply complete_same, Wl.
    + destruct r as [y|b|]; [discriminate Wr| |discriminate E].
      injection E as ->. cbn. rewrite Nat.eqb_refl. apply complete_same, Wl.
  - assert (Sh : size hl <= n) by (cbn in Hs; lia). assert (Sb : size b1 <= n) by (cbn in Hs; lia).
    split; intros Wl Wr.
    + destruct r as [y|b|hr b2]; [apply complete_bind; cbn in *; congruence|discriminate E|].
      destruct (wf_node_head _ _ Wl) as (c & ->), (wf_node_head _ _ Wr) as (c' & ->).
      injection E as <- Eb. rewrite ctp_node. pose proof Wl as Wlc. cbn [wf] in Wl, Wr. revert Wl Wr.
      destruct (Nat.eqb_spec c a_slice) as [->|_].
      { intros Wl Wr. apply complete_cmap with wf b1; [apply IH; auto|]. intros t W A. cbn. split; congruence. }
      destruct (Nat.eqb_spec c a_fun) as [->|_].
      { cbn [Nat.eqb a_fun a_tuple]. destruct b1 as [| |al1 r1], b2 as [| |al2 r2]; try discriminate.
        intros Wl Wr. apply andb_true_iff in Wl, Wr. destruct Wl as (Wl1 & Wl2), Wr as (Wr1 & Wr2).
        injection Eb as Ea Er. cbn in Sb.
        apply complete_cseq with wf_spine wf al1 r1; [apply IH; auto; lia|apply IH; auto; lia|].
        intros ta tr Wa Wr' Aa Ar. cbn. rewrite Wa, Wr'. split; [congruence|reflexivity]. }
      destruct (Nat.eqb_spec c a_tuple) as [->|_].
      { intros Wl Wr. apply complete_cmap with wf_spine b1; [apply IH; auto|]. intros t W A. cbn. split; congruence. }
      destruct (Nat.leb 8 c) eqn:E8; [|discriminate]. intros Wl Wr. rewrite Nat.eqb_refl.
      rewrite <- (spine_len_app th b1 Wl), <- (spine_len_app th b2 Wr), Eb, Nat.eqb_refl.
      apply complete_cmap with wf_spine b1; [apply IH; auto|]. intros t W A. split; [reflexivity|exact Wlc].
    + destruct r as [y|b|a2 r']; [discriminate Wr|discriminate E|]. rewrite clist_node.
      cbn [wf_spine] in Wl, Wr. apply andb_true_iff in Wl, Wr. destruct Wl as (Wl1 & Wl2), Wr as (Wr1 & Wr2).
      injection E as Ea Er.
      apply complete_cseq with wf wf_spine hl b1; [apply IH; auto|apply IH; auto|].
      intros ta tl Wa Wl' Aa Al. cbn. rewrite Wa, Wl'. split; [congruence|reflexivity].
Qed.
Lemma ctp_complete l r th : wf l = true -> wf r = true -> app th l = app th r -> ans_complete th wf l (ctp l r).
Proof. intros Wl Wr E. exact (proj1 (ctp_complete_all th (size l) l (le_n _) r E) Wl Wr). Qed.

(** what the loop keeps under a unifier [th] of everything fed so far *)
Definition tracks (th:nat->ty) (st:resolver) : Prop :=
  consistent st /\ fix_of th st /\ forall v, wf (eres (rs_lookup st v)) = true.

Lemma tracks_nil th : tracks th [].
Proof. split; [exact consistent_nil|]. split; intros v; reflexivity. Qed.

Lemma tracks_register th st e : tracks th st ->
  (forall w, In w (eset e) -> th w = app th (eres e)) -> wf (eres e) = true ->
  (forall w, In w (eset e) -> forall u, In u (eset (rs_lookup st w)) -> In u (eset e)) ->
  tracks th (rs_register enum st e).
Proof.
  intros (C & F & W) FX Wt CL. split; [apply consistent_register; auto|].
  split; intros w; rewrite rs_lookup_register; destruct (existsb (Nat.eqb w) (eset e)) eqn:EX; auto.
  apply existsb_eqb_In in EX. auto.
Qed.

Lemma update_one_complete th st x d :
  tracks th st -> th x = app th d -> wf d = true ->
  exists st1 R, update_one later enum st (x, d) = UOk st1 R false /\ tracks th st1 /\ sat th R /\ wf_rels R.
Proof.
  intros T E Wd. pose proof T as (C & F & W). destruct (C x) as (Ix & Cx).
  assert (F1 : forall w, In w (eset (rs_lookup st x)) -> th w = app th (eres (rs_lookup st x)))
    by (intros w I; rewrite (F w), (Cx w I); reflexivity).
  destruct (var_or_not d) as [(y & ->)|NV].
  - rewrite update_one_var. destruct (C y) as (Iy & Cy).
    assert (F2 : forall w, In w (eset (rs_lookup st y)) -> th w = app th (eres (rs_lookup st y)))
      by (intros w I; rewrite (F w), (Cy w I); reflexivity).
    assert (E12 : app th (eres (rs_lookup st x)) = app th (eres (rs_lookup st y)))
      by (rewrite <- (F1 x Ix), <- (F2 y Iy); exact E).
    destruct (ctp_complete _ _ th (W x) (W y) E12) as (t & R & -> & S & A & Wt & WR).
    eexists _, R. split; [reflexivity|]. split; [|auto]. apply tracks_register; cbn [eset eres]; auto.
    + intros w I. apply eqs_union_in in I.
      destruct I as [I|I]; [rewrite (F1 w I)|rewrite (F2 w I), <- E12]; symmetry; exact A.
    + apply union_closed; exact C.
  - rewrite (update_one_nonvar _ _ _ NV).
    assert (E1 : app th (eres (rs_lookup st x)) = app th d) by (rewrite <- E; symmetry; apply (F x)).
    destruct (ctp_complete _ _ th (W x) Wd E1) as (t & [|r0 R] & -> & S & A & Wt & WR).
    + exists st, []. auto.
    + eexists _, (r0 :: R). split; [reflexivity|]. split; [|auto]. apply tracks_register; cbn [eset eres]; auto.
      * intros w I. rewrite (F1 w I). symmetry. exact A.
      * intros w Iw u Iu. rewrite (Cx w Iw) in Iu. exact Iu.
Qed.

Lemma update_round_complete th : forall rels st, tracks th st -> sat th rels -> wf_rels rels ->
  exists st1 R, update_round later enum st rels = UOk st1 R false /\ tracks th st1 /\ sat th R /\ wf_rels R.
Proof.
  induction rels as [|(x,d) rest IH]; intros st T S WR; cbn [update_round].
  - exists st, []. split; [reflexivity|]. split; [exact T|]. split; constructor.
  - apply Forall_cons_iff in S, WR. destruct S as (E & S), WR as (Wd & WR).
    destruct (update_one_complete th st x d T E Wd) as (sa & Ra & -> & Ta & Sa & WRa).
    destruct (IH sa Ta S WR) as (sb & Rb & -> & Tb & Sb & WRb).
    exists sb, (Ra ++ Rb). split; [reflexivity|]. split; [exact Tb|]. split; apply Forall_app; auto.
Qed.

Lemma update_resolver_complete th : forall n rels st, tracks th st -> sat th rels -> wf_rels rels ->
  update_resolver later enum n st rels = LFuel \/
  exists st', update_resolver later enum n st rels = LDone st' false /\ tracks th st'.
Proof.
  induction n as [|n IH]; intros rels st T S WR; cbn [update_resolver]; [left; reflexivity|].
  destruct (update_round_complete th rels st T S WR) as (s1 & R1 & -> & T1 & S1 & WR1).
  destruct R1 as [|r1 R1]; [right; eauto|].
  destruct (IH (r1 :: R1) s1 T1 S1 WR1) as [->|(s2 & -> & T2)]; [left; reflexivity|right; eauto].
Qed.

Lemma trans_tv_app th f t a : trans_tv f t = ROk a ->
  (forall w tw, occurs w t = true -> f w = ROk tw -> app th tw = th w) -> app th a = app th t.
Proof. intros H K. destruct (trans_tv_ok _ _ _ H) as (F & ->). rewrite app_comp.
  apply app_ext_vars. intros w O. destruct (F w O) as (tw & E). rewrite E. exact (K w tw O E). Qed.

Lemma resolve_factors th st : fix_of th st -> forall n p v t,
  resolve n p st v = ROk t -> app th t = th v.
Proof.
  intros F. induction n as [|n IH]; intros p v t H; [discriminate|]. rewrite resolve_S in H.
  destruct (existsb _ p); [discriminate|]. destruct (ty_eqb _ _); [injection H as <-; reflexivity|].
  rewrite (F v). eapply trans_tv_app; eauto.
Qed.

Lemma rels_of_complete th : forall es,
  (forall l r, In (l,r) es -> wf l = true /\ wf r = true) -> unifies th es ->
  exists R, rels_of later es = Some (R, false) /\ sat th R /\ wf_rels R.
Proof.
  induction es as [|(l,r) es IH]; intros W U; cbn [rels_of].
  - exists []. repeat split; constructor.
  - apply allp_cons in W, U. destruct W as ((Wl & Wr) & W), U as (E & U).
    destruct (ctp_complete l r th Wl Wr E) as (t & R1 & C & S1 & _ & _ & WR1).
    unfold unify_type. rewrite C. destruct (IH W U) as (R2 & -> & S2 & WR2).
    exists (R1 ++ R2). split; [reflexivity|]. split; apply Forall_app; auto.
Qed.

(** resolver_most_general: on unifiable (well-formed) equations fc's resolver never panics and never
    ignores a clash, and every unifier factors through the substitution it induces *)
Theorem resolver_most_general : forall n es th,
  (forall l r, In (l,r) es -> wf l = true /\ wf r = true) -> unifies th es ->
  solve later enum n es = SFuel \/
  exists st, solve later enum n es = SSolved st false /\
    forall m v t, resolve m [] st v = ROk t -> app th t = th v.
Proof.
  intros n es th W U. unfold solve.
  destruct (rels_of_complete th es W U) as (R & -> & S & WR).
  destruct (update_resolver_complete th n R [] (tracks_nil th) S WR) as [->|(st & -> & _ & FX & _)];
    [left; reflexivity|].
  right. exists st. split; [reflexivity|]. intros m v t H. eapply resolve_factors; eauto.
Qed.

End Proofs.

Section Agreement.
Variable later : nat -> nat -> bool.
Variable enum : list nat -> list nat.
Hypothesis enum_ok : forall l x, In x (enum l) <-> In x l.

(** On every (well-formed) equation set that Robinson unification solves, fc's resolver - when its loop
    ends and every variable resolves - ignores no clash, also solves the equations, and its
    substitution [rho] and Robinson's [sg] are instances of each other (sg o rho = sg and
    rho o sg = rho): both are most general unifiers, equal up to renaming of the remaining variables. *)
Theorem resolver_agrees_with_unify : forall k es sg n st g m,
  (forall l r, In (l,r) es -> wf l = true /\ wf r = true) ->
  unify k es = Ok sg ->
  solve later enum n es = SSolved st g ->
  (forall v, exists t, resolve m [] st v = ROk t) ->
  g = false /\
  unifies (induced m st) es /\
  (forall v, app_seq sg (induced m st v) = app_seq sg (TVar v)) /\
  (forall t, app (induced m st) (app_seq sg t) = app (induced m st) t).
Proof.
  intros k es sg n st g m W UN SO ALL.
  set (ths := fun v => app_seq sg (TVar v)).
  assert (US : unifies ths es).
  { intros l r I. unfold ths. rewrite <- !app_seq_app. apply (unify_sound _ _ _ UN); exact I. }
  destruct (resolver_most_general later enum enum_ok n es ths W US) as [F|(st' & F & MG)]; [rewrite SO in F; discriminate F|].
  rewrite SO in F. injection F as <- ->.
  assert (SOUND : unifies (induced m st) es) by (eapply resolver_sound; eauto).
  split; [reflexivity|]. split; [exact SOUND|]. split.
  - intros v. unfold induced. destruct (ALL v) as (t & Hv). rewrite Hv.
    rewrite (app_seq_app sg t). apply (MG m v t Hv).
  - intros t. apply (unify_mgu _ _ _ UN _ SOUND).
Qed.

End Agreement.

Definition enum_id (l:list nat) : list nat := l.
Lemma enum_id_ok : forall l x, In x (enum_id l) <-> In x l.
Proof. intros; reflexivity. Qed.

(** compositeTp's last case ("both type is concrete") silently ignores a clash of two base types:
    T0 = int together with T0 = string is "solved" by T0 := int.  So [resolver_sound] needs its
    hypothesis that no clash was ignored, and fc accepts some ill-typed programs. *)
Example resolver_ignores_base_clash :
  let es := [(TVar 0, tint); (TVar 0, tstring)] in
  (forall th, ~ unifies th es) /\
  exists st, solve Nat.ltb enum_id 10 es = SSolved st true /\
             resolve 10 [] st 0 = ROk tint /\
             ~ unifies (induced 10 st) es.
Proof.
  cbn zeta. split.
  - intros th U. pose proof (U _ _ (or_introl eq_refl)) as A.
    pose proof (U _ _ (or_intror (or_introl eq_refl))) as B. vm_compute in A, B. congruence.
  - eexists. split; [vm_compute; reflexivity|]. split; [vm_compute; reflexivity|].
    intros U. pose proof (U _ _ (or_intror (or_introl eq_refl))) as B. vm_compute in B. discriminate.
Qed.

(** a mismatch of a slice/function/tuple against something else is a panic, not a diagnostic *)
Example resolver_panics_on_shape_clash :
  solve Nat.ltb enum_id 10 [(TVar 0, tint); (TVar 0, tslice tint)] = SPanic.
Proof. vm_compute. reflexivity. Qed.

Definition self_feeding (later:nat->nat->bool) (enum:list nat->list nat) (Inv:resolver -> list rel -> Prop) : Prop :=
  forall st R, Inv st R ->
  exists st' R' g, update_round later enum st R = UOk st' R' g /\ R' <> [] /\ Inv st' R'.

Lemma self_feeding_diverges later enum Inv : self_feeding later enum Inv ->
  forall n st R, Inv st R -> update_resolver later enum n st R = LFuel.
Proof. intros SF. induction n as [|n IH]; intros st R I; [reflexivity|]. cbn [update_resolver].
  destruct (SF st R I) as (st' & R' & g & -> & NE & I'). destruct R' as [|r R']; [congruence|].
  rewrite (IH _ _ I'). reflexivity. Qed.

(** Why the loop can diverge (no occurs check before resolution): if compositeTp of the type [t2] of
    [x]'s class with [d] gives [t2] back with copies [R0] of x -> [d], a pass over such copies
    re-creates them. *)
Section Recreated.
Variables (x:nat) (d t2:ty) (R0:list rel).
Hypothesis d_nonvar : forall y, d <> TVar y.
Hypothesis again : ctp Nat.ltb t2 d = COk t2 R0 false.
Hypothesis R0_copies : Forall (eq (x, d)) R0.
Hypothesis R0_some : R0 <> [].

Definition recreated (st:resolver) (R:list rel) : Prop :=
  rs_lookup st x = mkEI [x] t2 /\ Forall (eq (x, d)) R /\ R <> [].

Lemma recreated_one st : rs_lookup st x = mkEI [x] t2 ->
  exists st', update_one Nat.ltb enum_id st (x, d) = UOk st' R0 false /\ rs_lookup st' x = mkEI [x] t2.
Proof. intros L. rewrite (update_one_nonvar _ _ _ _ _ d_nonvar), L. cbn [eres eset]. rewrite again.
  destruct R0; [congruence|]. eexists. split; [reflexivity|].
  rewrite (rs_lookup_register enum_id enum_id_ok). cbn [eset existsb]. rewrite Nat.eqb_refl. reflexivity. Qed.

Lemma recreated_round : forall R st, rs_lookup st x = mkEI [x] t2 -> Forall (eq (x, d)) R ->
  exists st' R', update_round Nat.ltb enum_id st R = UOk st' R' false /\
    rs_lookup st' x = mkEI [x] t2 /\ Forall (eq (x, d)) R' /\ (R <> [] -> R' <> []).
Proof. induction R as [|r R IH]; intros st L F; cbn [update_round].
  - exists st, []. auto.
  - inversion F as [|? ? <- F']; subst. destruct (recreated_one st L) as (s1 & -> & L1).
    destruct (IH s1 L1 F') as (s2 & R2 & -> & L2 & F2 & _). exists s2, (R0 ++ R2).
    split; [reflexivity|]. split; [exact L2|]. split; [apply Forall_app; auto|].
    intros _ E. apply app_eq_nil in E. tauto. Qed.

Lemma recreated_from Rs st1 R1 g : update_round Nat.ltb enum_id [] Rs = UOk st1 R1 g -> recreated st1 R1 ->
  self_feeding Nat.ltb enum_id (fun st R => st = [] /\ R = Rs \/ recreated st R).
Proof. intros U1 I1 st R [(-> & ->)|(L & F & NE)].
  - exists st1, R1, g. split; [exact U1|]. split; [apply I1|right; exact I1].
  - destruct (recreated_round R st L F) as (st' & R' & U & L' & F' & NE').
    exists st', R', false. split; [exact U|]. split; [auto|right; repeat split; auto]. Qed.
End Recreated.

(** T1 = []T1 together with T1 = [][]T1 re-creates the relation T1 -> []T1 in every pass. *)
Definition es_div : list eqn := [(TVar 1, tslice (TVar 1)); (TVar 1, tslice (tslice (TVar 1)))].

Lemma slices_self_feeding :
  self_feeding Nat.ltb enum_id (fun st R =>
    st = [] /\ R = [(1, tslice (TVar 1)); (1, tslice (tslice (TVar 1)))] \/
    recreated 1 (tslice (TVar 1)) (tslice (tslice (TVar 1))) st R).
Proof.
  eapply recreated_from with (R0 := [(1, tslice (TVar 1))]);
    [discriminate|reflexivity|repeat constructor|discriminate|reflexivity|].
  split; [reflexivity|]. split; [repeat constructor|discriminate].
Qed.

Theorem update_resolver_can_diverge : forall n, solve Nat.ltb enum_id n es_div = SFuel.
Proof. intros n. unfold solve.
  change (rels_of Nat.ltb es_div) with (Some ([(1, tslice (TVar 1)); (1, tslice (tslice (TVar 1)))], false)).
  cbv beta iota. rewrite (self_feeding_diverges _ _ _ slices_self_feeding); [reflexivity|left; split; reflexivity]. Qed.

Theorem resolver_sound_without_flag_refuted :
  exists es st, (forall th, ~ unifies th es) /\
    solve Nat.ltb enum_id 10 es = SSolved st true /\
    (forall v, exists t, resolve 10 [] st v = ROk t) /\
    ~ unifies (induced 10 st) es.
Proof.
  destruct resolver_ignores_base_clash as (NU & st & S & _ & NI).
  exists [(TVar 0, tint); (TVar 0, tstring)], st. repeat split; auto.
  vm_compute in S. injection S as <-. intros [|v]; [exists tint; reflexivity|].
  exists (TVar (S v)). cbn. rewrite Nat.eqb_refl. reflexivity.
Qed.
