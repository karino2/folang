(** C03 — declarations and foreign calls follow the documented Go representation. Statements only.
    [doc_record], [doc_union], [doc_case], [doc_func] are the documented shapes written independently
    of the emission functions (Core/DeclsProofs.v); Go types are opaque texts (their mapping is C15). *)
From Coq Require Import List String.
From FoVerif Require Import Core.Decls Core.DeclsProofs.
Import ListNotations.

Theorem C03_record_matches_doc : forall r, doc_record r (emit_record r).
Proof. exact emit_record_matches_doc. Qed.
Print Assumptions C03_record_matches_doc.

(** any number of cases, any payload types, generic or not *)
Theorem C03_union_matches_doc : forall u, doc_union u (emit_union u).
Proof. exact emit_union_matches_doc. Qed.
Print Assumptions C03_union_matches_doc.

Theorem C03_ctor_is_var_iff :
  forall u cn payload,
  (exists t, In (GVar (ctor_name (ud_name u) cn) t) (emit_case u (cn, payload)))
  <-> payload = None /\ ud_tparams u = [].
Proof. exact ctor_is_var_iff. Qed.
Print Assumptions C03_ctor_is_var_iff.

Theorem C03_root_func_matches_doc : forall f, doc_func f (emit_root_func f).
Proof. exact emit_root_func_matches_doc. Qed.
Print Assumptions C03_root_func_matches_doc.

Theorem C03_unit_param_no_param :
  forall f, Forall (fun p => snd p = None) (fd_params f) ->
  emit_root_func f = GFunc (fd_name f) (fd_tparams f) [] (fd_result f).
Proof. exact unit_param_no_param. Qed.
Print Assumptions C03_unit_param_no_param.

Theorem C03_ext_call_args_in_order :
  forall pkg name targs supplied missing result,
  let e := emit_ext_call pkg name targs supplied missing result in
  call_fn e = pi_full_name pkg name /\
  exists rs, call_args e = (map XArg supplied ++ map XVar rs)%list /\ List.length rs = List.length missing /\
  match missing with
  | [] => e = XCall (pi_full_name pkg name) targs (map XArg supplied)
  | _ => exists ps, e = XClosure ps result (XCall (pi_full_name pkg name) targs (map XArg supplied ++ map XVar rs)%list)
                    /\ map fst ps = rs /\ map snd ps = missing
  end.
Proof. exact ext_call_args_in_order. Qed.
Print Assumptions C03_ext_call_args_in_order.

(** non-vacuity *)
Example C03_example_union :
  emit_union (mkUnion "Sh" ["T"] [("Circle", Some "T"); ("Empty", None)])%string =
  [GInterface "Sh" ["T"] "Sh_Union";
   GMethod None "Sh_Circle" ["T"] "Sh_Union" None; GMethod None "Sh_Empty" ["T"] "Sh_Union" None;
   GMethod (Some "v") "Sh_Circle" ["T"] "String" (Some "string"); GMethod (Some "v") "Sh_Empty" ["T"] "String" (Some "string");
   GStruct "Sh_Circle" ["T"] [("Value", "T")]; GFunc "New_Sh_Circle" ["T"] [("v", "T")] (Some "Sh[T]");
   GStruct "Sh_Empty" ["T"] []; GFunc "New_Sh_Empty" ["T"] [] (Some "Sh[T]")]%string.
Proof. reflexivity. Qed.
Example C03_example_call :
  emit_ext_call "_" "Ext3" [] ["a"] ["string"; "bool"] (Some "string")%string =
  XClosure [("_r0", "string"); ("_r1", "bool")] (Some "string")
           (XCall "Ext3" [] [XArg "a"; XVar "_r0"; XVar "_r1"])%string.
Proof. reflexivity. Qed.
