(** C16 — fc always terminates with either complete output or a diagnostic.   (PARTIAL)

    Full statement (not provable here: it quantifies over the whole recursive-descent parser,
    the inference and the emitter, which are not modelled, and over stack/heap exhaustion):

      for every argument list and file content fc terminates; it exits 0 only if every gen_*.go
      it was asked for has been completely written; otherwise it exits non-zero after printing a
      diagnostic, writes nothing for the offending file, and never hangs or dies of a Go run-time
      fatal error.

    Proved below, each over all inputs, for the faithful transcriptions of
      - the scanners of fc/wrapper.go (Front/Term.v): never out of fuel, progress, tokenizer
        termination, ParseSInterP / reinterpretEscape totality;
      - the list loops ParseList / ParseList2 / ParseSepList (Front/ListLoop.v);
      - type-variable resolution with the path check (Core/Resolve.v);
      - the file driver transpileFiles / transpileOne (Driver/FileDriver.v).
    Explored only (mutation fuzzing in harness/c16.go): everything between the token stream and
    the emitted text.

    Statements only; each is closed by [exact] of a lemma of the proof files. *)
From Coq Require Import List Arith Bool ZArith String.
From FoVerif Require Import Front.Term Front.TermProofs Front.ListLoop.
From FoVerif Require Import Core.Resolve Core.ResolveProofs Driver.FileDriver Driver.FileDriverProofs.
From Coq Require Import NArith.
From FoVerif Require Core.Resolver Core.ResolverBound Core.ResolverBoundProofs.
Import ListNotations.

(** scanTokenAt with fuel length+1, at any position of any buffer: the EOF token exactly at the
    end; otherwise a diagnostic, or a non-empty token inside the buffer that begins at [pos]
    (at [pos+1] for $"…" / $`…`, whose token excludes the dollar sign). Never OutOfFuel. *)
Theorem C16_scan_total : forall buf pos,
  pos <= List.length buf ->
  (pos = List.length buf /\ scan_token_at (S (List.length buf)) buf pos = Tok EOF pos 0 PNone)
  \/ (pos < List.length buf /\
      match scan_token_at (S (List.length buf)) buf pos with
      | Tok ty b l _ => ty <> EOF /\ (b = pos \/ (ty = SINTERP /\ b = S pos)) /\ 0 < l /\
                        b + l <= List.length buf
      | Diag _ => True
      | OutOfFuel => False
      end).
Proof. exact scan_total. Qed.
Print Assumptions C16_scan_total.

(** nextToken from any position [p]: the EOF token, a diagnostic, or a non-SPACE token that ends
    strictly after [p]. *)
Theorem C16_next_token_progress : forall buf p,
  match next_token (S (List.length buf)) buf p with
  | Tok ty b l _ =>
    (ty = EOF /\ b = List.length buf /\ l = 0) \/
    (ty <> EOF /\ ty <> SPACE /\ p <= b /\ 0 < l /\ b + l <= List.length buf)
  | Diag _ => True
  | OutOfFuel => False
  end.
Proof. exact next_token_progress. Qed.
Print Assumptions C16_next_token_progress.

(** newTkz / tkzNext iterated from any position: EOF or a diagnostic within length+1 tokens. *)
Theorem C16_tokenize_terminates : forall buf p acc,
  match tokenize (S (List.length buf)) (S (List.length buf)) buf p acc with
  | TDone _ | TDiag _ _ => True
  | TOutOfFuel | TOutOfSteps => False
  end.
Proof. exact tokenize_terminates. Qed.
Print Assumptions C16_tokenize_terminates.

Theorem C16_parse_sinterp_total : forall buf,
  match parse_sinterp (S (List.length buf)) buf with
  | SOk _ _ | SDiag _ => True
  | SOutOfFuel => False
  end.
Proof. exact parse_sinterp_total. Qed.
Print Assumptions C16_parse_sinterp_total.

Theorem C16_reinterpret_escape_total : forall buf,
  reinterpret_escape (S (List.length buf)) buf <> EOutOfFuel.
Proof. exact reinterpret_escape_total. Qed.
Print Assumptions C16_reinterpret_escape_total.

(** the defect repaired by commit 454a055, kept as a refutation of the old scanner: without the
    end-of-buffer guard in the line-comment loop, a buffer that ends inside a line comment exhausts
    every amount of fuel. *)
Theorem C16_scan_space_old_eof_comment_refuted :
  exists buf, forall fuel, scan_space_old fuel buf 0 = OutOfFuel.
Proof. exact scan_space_old_eof_comment_refuted. Qed.
Print Assumptions C16_scan_space_old_eof_comment_refuted.

(** non-vacuity: concrete buffers *)
Definition b (s : string) : bytes := bytes_of_string s.

Example C16_example_stream :
  tokens (b "let x = 12 // c
") = TDone [(LET, 0, 3, PStr (b "let")); (IDENTIFIER, 4, 1, PStr (b "x")); (EQ, 6, 1, PStr (b "="));
            (INT_IMM, 8, 2, PInt 12); (EOL, 15, 1, PStr [10]); (EOF, 16, 0, PNone)].
Proof. vm_compute. reflexivity. Qed.

Example C16_example_comment_at_eof :           (* hung before 454a055 *)
  tokens (b "x //c") = TDone [(IDENTIFIER, 0, 1, PStr (b "x")); (EOF, 5, 0, PNone)].
Proof. vm_compute. reflexivity. Qed.

Example C16_example_number_at_eof :            (* buf[pos+i] past the end: a diagnostic *)
  tokens (b "x 12") = TDiag [(IDENTIFIER, 0, 1, PStr (b "x"))] idx_msg.
Proof. vm_compute. reflexivity. Qed.

Example C16_example_unclosed_comment :
  scan_token_at 5 (b "/* x") 0 = Diag "No comment end found.".
Proof. vm_compute. reflexivity. Qed.

Example C16_example_unclosed_string :
  scan_token_at 5 (b """abc") 0 = Diag "unclosed string literal".
Proof. vm_compute. reflexivity. Qed.

Example C16_example_string_newline :           (* a raw newline in the literal becomes backslash, n in the value *)
  scan_token_at 6 (b """a
b""") 0 = Tok STRING 0 5 (PStr [97; 92; 110; 98]).
Proof. vm_compute. reflexivity. Qed.

Example C16_example_string_bom :               (* EF BB BF inside a literal becomes the escape backslash ufeff; length counts the 3 bytes *)
  scan_token_at 8 [34; 97; 239; 187; 191; 98; 34] 0
  = Tok STRING 0 7 (PStr (b "a\ufeffb")).
Proof. vm_compute. reflexivity. Qed.

Example C16_example_raw_bom :
  scan_token_at 6 [96; 239; 187; 191; 96] 0 = Tok STRING 0 5 (PStr (b "\ufeff")).
Proof. vm_compute. reflexivity. Qed.

Example C16_example_bom_outside_literal :      (* a stray 0xEF hits the default panic(b) *)
  scan_token_at 4 [239; 187; 191] 0 = Diag bad_byte_msg.
Proof. vm_compute. reflexivity. Qed.

(** the defect of the intermediate commit 0061363 (isStringAt ranged over runes), repaired by
    2ecf680: the rune-wise test took any three bytes starting with EF for a byte order mark *)
Theorem C16_bom_test_runewise_old_refuted :
  exists buf j, bom_at_runewise_old buf j = true /\ is_string_at buf j bom = false.
Proof. exact bom_test_runewise_old_refuted. Qed.
Print Assumptions C16_bom_test_runewise_old_refuted.

Example C16_example_ef_character_kept :        (* U+FF71 (EF BD B1) in a literal stays as it is *)
  scan_token_at 6 [34; 239; 189; 177; 34] 0 = Tok STRING 0 5 (PStr [239; 189; 177]).
Proof. vm_compute. reflexivity. Qed.

Example C16_example_sinterp_token :            (* begins after the dollar sign *)
  scan_token_at 7 (b "$""a{x}""") 0 = Tok SINTERP 1 6 (PStr (b "a{x}")).
Proof. vm_compute. reflexivity. Qed.

Example C16_example_sinterp :
  parse_sinterp 20 (b "a{x}b\{c\}100%{yy}") = SOk (b "a%sb{c}100%%%s") [b "x"; b "yy"].
Proof. vm_compute. reflexivity. Qed.

Example C16_example_sinterp_open :
  parse_sinterp 5 (b "a{xy") = SDiag "Open brace but no close brace".
Proof. vm_compute. reflexivity. Qed.

Example C16_example_sinterp_brace_last :
  parse_sinterp 3 (b "a{") = SDiag idx_msg.
Proof. vm_compute. reflexivity. Qed.

(** ParseList over any parser state with a measure: if every successful step consumes at least one
    token, remaining+1 rounds suffice — a result whose state is not behind the start, or a
    diagnostic; never OutOfFuel. Any end predicate. *)
Theorem C16_parse_list_progress :
  forall (ps T : Type) (remaining : ps -> nat) (one : ps -> option (ps * T)) (end_pred : ps -> bool),
  (forall p p' r, one p = Some (p', r) -> remaining p' < remaining p) ->
  forall p,
    match parse_list ps T one end_pred (S (remaining p)) p [] with
    | LOk p' _ => remaining p' <= remaining p
    | LDiag => True
    | LOutOfFuel => False
    end.
Proof. exact parse_list_progress. Qed.
Print Assumptions C16_parse_list_progress.

Theorem C16_parse_list2_progress :
  forall (ps T : Type) (remaining : ps -> nat) (one : ps -> option (ps * T)) (end_pred : ps -> bool)
         (next : ps -> option ps),
  (forall p p' r, one p = Some (p', r) -> remaining p' < remaining p) ->
  (forall p p', next p = Some p' -> remaining p' <= remaining p) ->
  forall p,
    match parse_list2 ps T one end_pred next (S (remaining p)) p with
    | LOk p' _ => remaining p' <= remaining p
    | LDiag => True
    | LOutOfFuel => False
    end.
Proof. exact parse_list2_progress. Qed.
Print Assumptions C16_parse_list2_progress.

Theorem C16_parse_sep_list_progress :
  forall (ps T : Type) (remaining : ps -> nat) (one : ps -> option (ps * T)) (cur_is_sep : ps -> bool)
         (consume_sep : ps -> option ps),
  (forall p p' r, one p = Some (p', r) -> remaining p' < remaining p) ->
  (forall p p', consume_sep p = Some p' -> remaining p' <= remaining p) ->
  forall p,
    match parse_sep_list ps T one cur_is_sep consume_sep (S (remaining p)) p with
    | LOk p' _ => remaining p' <= remaining p
    | LDiag => True
    | LOutOfFuel => False
    end.
Proof. exact parse_sep_list_progress. Qed.
Print Assumptions C16_parse_sep_list_progress.

(** the hypothesis is not idle: a step that succeeds without consuming never ends *)
Theorem C16_parse_list_stuck_step_refuted :
  forall fuel, parse_list nat unit (fun p => Some (p, tt)) (fun _ => false) fuel 0 [] = LOutOfFuel.
Proof. exact parse_list_stuck_step_refuted. Qed.
Print Assumptions C16_parse_list_stuck_step_refuted.

Example C16_example_sep_list :
  parse_sep_list (list nat) nat ex_one ex_is_sep ex_consume 8 [1; 100; 2; 100; 3; 7; 100]
  = LOk [7; 100] [1; 2; 3].
Proof. exact parse_sep_list_example. Qed.

(** resolveType on any finite resolver and type, with fuel depth + entries*(deepest entry+1):
    a resolved type or the diagnostic "Recursive type is not supported." — never OutOfFuel. *)
Theorem C16_resolve_terminates : forall m t,
  exists r, resolve m t = r /\ (r = Cyclic \/ exists t', r = Resolved t').
Proof. exact resolve_terminates. Qed.
Print Assumptions C16_resolve_terminates.

Theorem C16_resolve_acyclic_ok : forall m t,
  acyclic m ->
  exists t', resolve m t = Resolved t' /\ forall w, occurs w t' -> ~ bound m w.
Proof. exact resolve_acyclic_ok. Qed.
Print Assumptions C16_resolve_acyclic_ok.

Theorem C16_resolve_cyclic_detected : forall m t w v,
  occurs w t -> walk m w v -> on_cycle m v -> resolve m t = Cyclic.
Proof. exact resolve_cyclic_detected. Qed.
Print Assumptions C16_resolve_cyclic_detected.

(** the diagnostic is never given without a cycle *)
Theorem C16_resolve_cyclic_sound : forall m t, resolve m t = Cyclic -> exists v, on_cycle m v.
Proof. exact resolve_cyclic_sound. Qed.
Print Assumptions C16_resolve_cyclic_sound.

(** the defect repaired by commit 9e9e4ad: without the path check T0 := func(T0) T1 is unfolded
    without end *)
Theorem C16_resolve_old_refuted : exists m t, forall fuel, resolve_old fuel m t = ROutOfFuel.
Proof. exact resolve_old_refuted. Qed.
Print Assumptions C16_resolve_old_refuted.

Example C16_example_resolve_acyclic :          (* T0 := []T1, T1 := int*T2 ; T2 free *)
  resolve [(0, TSlice (TVar 1)); (1, TTuple [TBase 0; TVar 2])] (TFunc [TVar 0; TVar 1])
  = Resolved (TFunc [TSlice (TTuple [TBase 0; TVar 2]); TTuple [TBase 0; TVar 2]]).
Proof. reflexivity. Qed.

Example C16_example_resolve_self_applied :     (* let f x = x x *)
  resolve [(0, TFunc [TVar 0; TVar 1])] (TVar 0) = Cyclic.
Proof. reflexivity. Qed.

Example C16_example_resolve_long_cycle :       (* T0 := []T1, T1 := T2, T2 := (T3, T0) reached from T5 := []T0 *)
  resolve [(5, TSlice (TVar 0)); (0, TSlice (TVar 1)); (1, TVar 2); (2, TTuple [TVar 3; TVar 0])] (TVar 5)
  = Cyclic.
Proof. reflexivity. Qed.

Example C16_example_on_cycle : on_cycle [(0, TFunc [TVar 0; TVar 1])] 0.
Proof.
  exists 0. split; [|apply walk_refl].
  split; [cbn; discriminate|]. cbn. eapply OFunc; [left; reflexivity|constructor].
Qed.

(** For every translation function (any parser/inference/emitter, with any state carried from
    file to file), any classification of arguments and destination function, any argument list,
    initial state and file system with any set of directories and unwritable paths. *)

Theorem C16_exit0_implies_all_written :
  forall (state : Type) (translate : state -> content -> option (state * content))
         (is_fo : path -> bool) (dest : path -> path)
         (args : list path) (st0 : state) (fs0 : fsys) (st' : state) (fs' : fsys),
  transpile_files state translate is_fo dest args st0 fs0 = Done st' fs' ->
  forall i f, nth_error args i = Some f -> is_fo f = true ->
  (forall j g, i < j -> nth_error args j = Some g -> is_fo g = true -> dest g <> dest f) ->
  exists st_i fs_i src st_i1 out,
    transpile_files state translate is_fo dest (firstn i args) st0 fs0 = Done st_i fs_i /\
    read fs_i f = Some src /\ translate st_i src = Some (st_i1, out) /\
    files fs' (dest f) = Some out.
Proof. exact exit0_implies_all_written. Qed.
Print Assumptions C16_exit0_implies_all_written.

Theorem C16_failure_writes_nothing_for_offender :
  forall (state : Type) (translate : state -> content -> option (state * content))
         (is_fo : path -> bool) (dest : path -> path)
         (args : list path) (st0 : state) (fs0 : fsys) (k : nat) (why : failure) (st_k : state) (fs_k : fsys),
  transpile_files state translate is_fo dest args st0 fs0 = Failed k why st_k fs_k ->
  exists f, nth_error args k = Some f /\
    transpile_files state translate is_fo dest (firstn k args) st0 fs0 = Done st_k fs_k /\
    step state translate is_fo dest st_k fs_k f = inr why /\
    ((forall g, In g (firstn k args) -> is_fo g = true -> dest g <> dest f) ->
     files fs_k (dest f) = files fs0 (dest f)).
Proof. exact failure_writes_nothing_for_offender. Qed.
Print Assumptions C16_failure_writes_nothing_for_offender.

Theorem C16_earlier_outputs_intact :
  forall (state : Type) (translate : state -> content -> option (state * content))
         (is_fo : path -> bool) (dest : path -> path)
         (args : list path) (st0 : state) (fs0 : fsys) (k : nat) (why : failure) (st_k : state) (fs_k : fsys),
  transpile_files state translate is_fo dest args st0 fs0 = Failed k why st_k fs_k ->
  (forall i f, i < k -> nth_error args i = Some f -> is_fo f = true ->
     (forall j g, i < j < k -> nth_error args j = Some g -> is_fo g = true -> dest g <> dest f) ->
     exists st_i fs_i src st_i1 out,
       transpile_files state translate is_fo dest (firstn i args) st0 fs0 = Done st_i fs_i /\
       read fs_i f = Some src /\ translate st_i src = Some (st_i1, out) /\
       files fs_k (dest f) = Some out)
  /\ (forall p, (forall g, In g (firstn k args) -> is_fo g = true -> dest g <> p) ->
                files fs_k p = files fs0 p).
Proof. exact earlier_outputs_intact. Qed.
Print Assumptions C16_earlier_outputs_intact.

Theorem C16_foi_writes_nothing :
  forall (state : Type) (translate : state -> content -> option (state * content))
         (is_fo : path -> bool) (dest : path -> path) st fs f st' fs',
  is_fo f = false -> step state translate is_fo dest st fs f = inl (st', fs') -> fs' = fs.
Proof. exact foi_writes_nothing. Qed.
Print Assumptions C16_foi_writes_nothing.

Theorem C16_exit_code_zero_iff : forall (state : Type) (r : run_result state),
  exit_code state r = 0 <-> exists st fs, r = Done st fs.
Proof. exact exit_code_zero_iff. Qed.
Print Assumptions C16_exit_code_zero_iff.

(** the defect repaired by commit 937260d: the result of sys.WriteFile was dropped — exit 0 with the
    requested file missing *)
Theorem C16_write_failure_exit0_old_refuted :
  exists (translate : unit -> content -> option (unit * content)) (fs0 : fsys) (args : list path),
    match transpile_files_old unit translate fo_is_fo fo_dest args tt fs0 with
    | Done _ fs' => fo_is_fo "x.fo"%string = true /\ In "x.fo"%string args /\
                    files fs' (fo_dest "x.fo"%string) = None
    | Failed _ _ _ _ => False
    end.
Proof. exact write_failure_exit0_old_refuted. Qed.
Print Assumptions C16_write_failure_exit0_old_refuted.

(** non-vacuity: a concrete run. translate: a file whose first byte is 0 is rejected, otherwise
    the output is the running count of accepted files followed by the source. *)
Definition ex_translate (n : nat) (src : content) : option (nat * content) :=
  match src with
  | 0 :: _ => None
  | _ => Some (S n, n :: src)
  end.
Definition ex_fs : fsys :=
  {| files := fun p => if String.eqb p "p.foi" then Some [7]
                       else if String.eqb p "d/a.fo" then Some [1; 1]
                       else if String.eqb p "b.fo" then Some [2]
                       else if String.eqb p "bad.fo" then Some [0; 9]
                       else if String.eqb p "gen_bad.go" then Some [42]      (* stale output of an earlier run *)
                       else None;
     is_dir := fun p => String.eqb p "gen_locked.go";
     unwritable := fun _ => false |}%string.
Definition ex_run (args : list path) := transpile_files nat ex_translate fo_is_fo fo_dest args 0 ex_fs.
Definition ex_look (r : run_result nat) (p : path) : option content :=
  match r with Done _ fs | Failed _ _ _ fs => files fs p end.

Example C16_example_paths :
  (fo_dest "d/a.fo", fo_dest "b.fo", fo_dest "/x/y/z.fo", fo_is_fo "p.foi", fo_is_fo "b.fo")%string
  = ("d/gen_a.go", "gen_b.go", "/x/y/gen_z.go", false, true)%string.
Proof. vm_compute. reflexivity. Qed.

Example C16_example_exit0 :
  let r := ex_run ["p.foi"; "d/a.fo"; "b.fo"]%string in
  (exit_code nat r, ex_look r "d/gen_a.go"%string, ex_look r "gen_b.go"%string, ex_look r "gen_p.go"%string)
  = (0, Some [1; 1; 1], Some [2; 2], None).
Proof. reflexivity. Qed.

Example C16_example_translate_failure :      (* the stale gen_bad.go is left alone, gen_a.go is complete, b.fo untouched *)
  let r := ex_run ["d/a.fo"; "bad.fo"; "b.fo"]%string in
  (exit_code nat r, ex_look r "d/gen_a.go"%string, ex_look r "gen_bad.go"%string, ex_look r "gen_b.go"%string)
  = (1, Some [0; 1; 1], Some [42], None).
Proof. reflexivity. Qed.

Example C16_example_write_failure :          (* destination is a directory *)
  ex_run ["locked.fo"]%string = Failed 0 ReadFail 0 ex_fs
  /\ transpile_files nat ex_translate fo_is_fo (fun _ => "gen_locked.go"%string) ["b.fo"]%string 0 ex_fs
     = Failed 0 WriteFail 0 ex_fs.
Proof. split; reflexivity. Qed.

(* ---- the bounded fixpoint loop of type inference (fc/infer.fo updateResolverN, Core/ResolverBound.v):
   1000 rounds / 100000 produced relations, then the diagnostic "Type inference does not converge".
   Termination for every resolver and every relation list; on converging inputs the bound changes nothing. *)
Theorem C16_type_inference_loop_terminates : forall later enum fuel st rels,
  (1002 <= N.of_nat fuel)%N -> ResolverBound.update_resolver_b later enum fuel st rels <> ResolverBound.BFuel.
Proof. exact ResolverBoundProofs.update_resolver_b_terminates. Qed.
Print Assumptions C16_type_inference_loop_terminates.

Theorem C16_type_inference_bound_changes_nothing_on_converging_input : forall later enum fuel st rels st' g r w,
  Resolver.update_resolver later enum fuel st rels = Resolver.LDone st' g ->
  ResolverBound.run_stats later enum fuel st rels = Some (r, w) ->
  (r <= ResolverBound.round_bound)%N -> (w <= ResolverBound.work_bound)%N ->
  ResolverBound.update_resolver_b later enum fuel st rels = ResolverBound.BDone st' g.
Proof. exact ResolverBoundProofs.update_resolver_b_agrees. Qed.
Print Assumptions C16_type_inference_bound_changes_nothing_on_converging_input.
