(** C06 — only relative indentation and line structure matter (offside rule).
    Statements only; each is closed by [exact] of a lemma of Front/LayoutProofs.v / Front/LayoutInv.v
    (the examples: Front/LayoutEx.v).

    The property, in full: for every program and any two layouts of it drawn from the layout grammar
    (per-block indentation by any positive amount, blank lines, trailing blanks, line and block comments
    between or after statements, cases and fields, an if on one line or several, a let's right-hand side
    or a match arm's body on the same or the next line, a break before any |>), fc emits the same Go;
    conversely a line indented less than its block ends that block.

    What is proved here, about the model of Front/Layout.v (a transcription of newTkz/tkzNext and of the
    offside skeleton of fc/parser.fo, tied to fc by the correspondence run in harness/c06.go):

    (a) C06_col_is_true_column      the incrementally tracked column is the true column
    (b) C06_columns_only_compared   columns are read only through comparisons
    (c) C06_layout_invariance_partial, C06_same_structure_same_parse, C06_block_layout_invariance,
        C06_dedent_ends_block       the offside parser inverts the layout printer on every valid layout.

    [_partial]: (c) covers blocks, let (right-hand side on the same or a later line, at any column), local
    and root function definitions (body on the same or a later line), multi-line if/elif/else chains with or
    without else (else body on the same or a later line; 'else'/'elif' at any column left of the preceding
    block, which must not itself end in a multi-line if without else), then-bodies on the line of their
    if/elif followed by else/elif on the same line (the one-line if c then a [elif d then b]... [else e]) or on
    a later line at any column inside the offside line of the enclosing block, union matches (arm
    bars at any columns inside the offside line and left of the previous body, bodies on the same or a later
    line, a trailing default arm), string matches (literal rules and the closing variable rule at any column
    left of the previous body - they are not tested against the offside line -, the default rule inside it),
    chains of binary operators with a
    line break before any operator (|> included) at any column, lambdas in parentheses (body on the same
    or a later line, ')' also on a line of its own), any number of extra EOL tokens (blank lines, comment
    lines, trailing comments) at every line end, statements after the first of a block at any column that
    is not left of the block and left of what the previous statement left open.
    Also covered: parenthesised expressions and tuples (a lambda, an if, a match or any block-ending expression
    as the last element, ')' then also on a line of its own), slice literals and record literals (elements /
    field values of any form; the ';' or the closing token after an element that ends with a block stands on a
    later line left of that block; a record field may be broken after its name and after '='; nothing else may
    be broken: fc skips no EOL after the opening token or a separator), (), destructuring lets, and at the root:
    package / import lines, union definitions (cases at any column: they are not tested against the offside
    line) and package_info blocks (their definitions form an offside block).
    Outside (c) (modelled by parse_blocks, exercised by the harness, not proved): record type definitions
    with fields on several lines, type aliases, specified record initializers (rec.X = e), and distinct columns for the
    tokens that are neither first on
    their line nor the first token of a same-line body (they share one arbitrary column [inner]).

    Finding n ("an if on one line or several" failed with elif / with else on the next line) is repaired in
    fc; the model transcribes the repaired parser: see C06_elif_one_line_accepted and the documentation
    C06_elif_one_line_refuted_old below. Known finding string-arm-dedent (converse clause, string matches)
    is visible in the validity predicate wf_sarms: literal and variable rules are not tied to the offside line. *)
From Coq Require Import List ZArith Arith.
From FoVerif Require Import Front.Layout Front.LayoutProofs Front.LayoutInv Front.LayoutEx.
Import ListNotations.

(** (a) For every byte string [buf], every token stream scanned from it (tokens in order, not overlapping,
    an EOL token is exactly one newline byte) and every token k: if no newline byte lies between the end of
    the last EOL token before k and k (no hidden newline inside a string, raw string or block comment),
    the column that newTkz/tkzNext maintain for k is its offset minus the offset of its line's start. *)
Theorem C06_col_is_true_column : forall buf ts k tk,
  wf_stream buf ts ->
  nth_error ts k = Some tk ->
  (forall p, (last_eol_end ts k <= p < rt_begin tk)%Z -> nl_at buf p = false) ->
  nth_error (tkz_cols ts) k = Some (rt_begin tk - line_start_z buf (rt_begin tk))%Z.
Proof. exact col_is_true_column. Qed.
Print Assumptions C06_col_is_true_column.

(** without the hypothesis on hidden newlines: the tracked column is the distance to the end of the last
    EOL token (so it is wrong exactly for tokens that follow a hidden newline on their line) *)
Theorem C06_tracked_column_is_distance_to_last_eol_token : forall ts k t,
  nth_error ts k = Some t ->
  nth_error (tkz_cols ts) k = Some (rt_begin t - last_eol_end ts k)%Z.
Proof. exact tkz_cols_spec. Qed.
Print Assumptions C06_tracked_column_is_distance_to_last_eol_token.

(** (b) every strictly monotone relabelling of the columns that keeps the left margin leaves the recovered
    block structure, and every rejection, unchanged — for every token stream and every fuel. *)
Theorem C06_columns_only_compared : forall rho, strictly_monotone rho -> rho 0 = 0 ->
  forall n ts, parse_blocks n (map_cols rho ts) = parse_blocks n ts.
Proof. exact columns_only_compared. Qed.
Print Assumptions C06_columns_only_compared.

Theorem C06_columns_only_compared_block : forall rho, strictly_monotone rho ->
  forall n off ts,
    p_block n (rho off) (map_cols rho ts) =
    match p_block n off ts with Ok (b, r) => Ok (b, map_cols rho r) | Reject => Reject | Fuel => Fuel end.
Proof. exact columns_only_compared_block. Qed.
Print Assumptions C06_columns_only_compared_block.

(** (c) for every decorated program whose layout choices are valid, the parser recovers the erased
    program from the rendered token stream, with any sufficient fuel *)
Theorem C06_layout_invariance_partial : forall inner p, wf_prog None p ->
  exists n0, forall n, n0 <= n -> parse_blocks n (r_prog inner p) = Ok (er_prog p).
Proof. exact layout_invariance_partial. Qed.
Print Assumptions C06_layout_invariance_partial.

Theorem C06_same_structure_same_parse : forall inner1 inner2 p1 p2,
  wf_prog None p1 -> wf_prog None p2 -> er_prog p1 = er_prog p2 ->
  exists n0, forall n, n0 <= n -> parse_blocks n (r_prog inner1 p1) = parse_blocks n (r_prog inner2 p2).
Proof. exact same_structure_same_parse. Qed.
Print Assumptions C06_same_structure_same_parse.

Theorem C06_block_layout_invariance : forall inner b off, wf_block off b ->
  exists n0, forall n, n0 <= n -> p_block n off (r_block inner b) = Ok (er_block b, []).
Proof. exact block_layout_invariance. Qed.
Print Assumptions C06_block_layout_invariance.

(** conversely: a line whose first token stands strictly left of a block ends the block right there *)
Theorem C06_dedent_ends_block : forall inner b off k t c' r,
  wf_block off b -> end_of_term k = true -> nohd_else k -> skip_eol k = (t, c') :: r -> is_binop t = false ->
  (block_io b = true -> noelse t) -> c' < bcol b ->
  exists n0, forall n, n0 <= n -> p_block n off (r_block inner b ++ k) = Ok (er_block b, (t, c') :: r).
Proof. exact dedent_ends_block. Qed.
Print Assumptions C06_dedent_ends_block.

(** C06_elif_one_line_refuted_old (documentation, about the parser BEFORE the repair "fix: if/elif/else may
    be written on one line"): the transcription of the old isEndOfTerm / parseIfAfterIfExpr (no ELIF in
    isEndOfTerm; the one-line branch looked for 'else' on the same line only) gave
        parse_blocks 200 if_one_line_elif            = Reject      (if c then a elif d then b else e)
        parse_blocks 200 if_inline_then_newline_else = Reject      (if c then a / else e)
    while parse_blocks 200 if_multi = Ok _, which refuted the clause "an if may be written on one line or on
    several" (finding n).
    With the repaired parser, transcribed in Front/Layout.v (p_if, p_if1, p_if_nl), the same token streams
    give the tree of the multi-line form, and the one-line forms are covered by C06_layout_invariance_partial
    (decorated trees TOne / R1Else / R1Elif / R1NlElse / R1NlElif). An else/elif on a later line belongs to
    a one-line if only if it stands inside the offside line of the block that contains the if. *)
Theorem C06_elif_one_line_accepted :
  (exists t, parse_blocks 200 if_multi = Ok t /\ parse_blocks 200 if_one_line_elif = Ok t /\
             parse_blocks 200 if_inline_elif_newline_else = Ok t) /\
  (exists t, parse_blocks 200 if2_multi = Ok t /\ parse_blocks 200 if_inline_then_newline_else = Ok t) /\
  parse_blocks 200 if_inline_then_else_left_of_block = Reject.
Proof. exact elif_one_line_accepted. Qed.
Print Assumptions C06_elif_one_line_accepted.

(** non-vacuity *)
Example C06_example_two_layouts :
  wf_prog None ex_a /\ wf_prog None ex_b /\ er_prog ex_a = er_prog ex_b /\
  r_prog 0 ex_a <> r_prog 99 ex_b /\
  parse_blocks 400 (r_prog 0 ex_a) = Ok (er_prog ex_a) /\
  parse_blocks 400 (r_prog 99 ex_b) = Ok (er_prog ex_a).
Proof. exact two_layouts_one_tree. Qed.

Example C06_example_if_three_layouts :
  wf_prog None ex_if_multi /\ wf_prog None ex_if_one_line /\ wf_prog None ex_if_mixed /\
  er_prog ex_if_multi = er_prog ex_if_one_line /\ er_prog ex_if_multi = er_prog ex_if_mixed /\
  parse_blocks 200 (r_prog 0 ex_if_multi) = Ok (er_prog ex_if_multi) /\
  parse_blocks 200 (r_prog 30 ex_if_one_line) = Ok (er_prog ex_if_multi) /\
  parse_blocks 200 (r_prog 30 ex_if_mixed) = Ok (er_prog ex_if_multi).
Proof. exact if_three_layouts. Qed.

Example C06_example_groups :
  wf_prog None (ex_groups true 7) /\ wf_prog None (ex_groups false 40) /\
  er_prog (ex_groups true 7) = er_prog (ex_groups false 40) /\
  parse_blocks 400 (r_prog 0 (ex_groups true 7)) = Ok (er_prog (ex_groups true 7)) /\
  parse_blocks 400 (r_prog 50 (ex_groups false 40)) = Ok (er_prog (ex_groups true 7)).
Proof. exact groups_two_layouts. Qed.

Example C06_example_roots :
  wf_prog None (ex_roots 0 2 2) /\ wf_prog None (ex_roots 3 9 7) /\
  er_prog (ex_roots 0 2 2) = er_prog (ex_roots 3 9 7) /\
  parse_blocks 400 (r_prog 0 (ex_roots 0 2 2)) = Ok (er_prog (ex_roots 0 2 2)) /\
  parse_blocks 400 (r_prog 33 (ex_roots 3 9 7)) = Ok (er_prog (ex_roots 0 2 2)).
Proof. exact roots_two_layouts. Qed.

Example C06_example_dedent :
  (exists t, parse_blocks 200 ded_ok = Ok t) /\ parse_blocks 200 ded_bad = Reject.
Proof. exact dedent_example. Qed.

Example C06_example_columns :
  tkz_cols [mkRtok false 0 3; mkRtok false 4 1; mkRtok true 9 1; mkRtok false 12 1; mkRtok false 14 2;
            mkRtok true 23 1; mkRtok false 35 3; mkRtok false 76 0]%Z = [0; 4; 9; 2; 4; 13; 11; 52]%Z.
Proof. vm_compute. reflexivity. Qed.

Example C06_example_relabel :
  parse_blocks 200 (map_cols (fun c => 2 * c + c / 4) if_multi) = parse_blocks 200 if_multi /\
  (exists t, parse_blocks 200 if_multi = Ok t).
Proof. vm_compute. split; [reflexivity|eexists; reflexivity]. Qed.
