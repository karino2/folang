(** C01 — transpiled programs behave exactly as their Folang source specifies.
    Statements only; each is closed by lemmas of Core/CompileProof.v, Core/CompileMore.v, Core/FuelMono.v,
    Core/WfCheck.v or Core/CompileExamples.v.

    Models: Core/MiniFo.v (source: typed-and-elaborated AST of Core/FORMAT.md, fuelled big-step
    evaluator [run_src]), Core/MiniGo.v (the Go fragment fc emits, [run_go]), Core/Compile.v
    ([compile_prog], the lowering of fc/ir_factory.fo + expr_to_go.fo + stmt_to_go.fo), Core/Lib.v (the
    list-level specification of frt / slice / strings shared by both evaluators).

    [wt p] (Core/SimDefs.v, [wfp false]): the proved fragment = every MiniFo construct, with the side
    conditions: identifiers are not reserved ([_…], [New_…]); the two branches of an [if] agree on being of
    type unit; tuples / destructurings have 2 or 3 components; a record literal mentions every declared field
    exactly once (in any order); constructors are declared and the generated Go
    constructor names are pairwise distinct; [ext] names a source-level library function.
    [pap_args_pure p] ([wfp true]): moreover every argument supplied to a partial application is [pure]: a variable, a
    literal, a lambda, such a partial application, or an operator / [=] / [not] / tuple / record / field access /
    constructor / slice literal over such arguments (no call, pipe, if, match, interpolation) — fc re-evaluates these arguments at each call of the
    closure it emits (fcPartialApplyGo), so the statement is false without it (see [C01_compile_effectful_pap_refuted]). *)
From Coq Require Import List ZArith String.
From FoVerif Require Import Core.Common Core.Lib Core.MiniFo Core.MiniGo Core.Compile Core.GoRules Core.SimDefs
  Core.CompileProof Core.CompileExamples Core.FuelMono Core.CompileMore Core.WfCheck.
Import ListNotations.

(** The full statement of the property on the model (NOT provable: refuted below). *)
Definition C01_compile_correct_full_statement : Prop :=
  forall p n out, wt p -> run_src n p = ODone out -> exists m, run_go m (compile_prog p) = ODone out.

(** Whenever the source semantics runs the program to completion with output [out], the emitted Go program,
    run in the MiniGo semantics, terminates with exactly the output [out]. *)
Theorem C01_compile_correct_partial : forall p n out,
  wt p -> pap_args_pure p ->
  run_src n p = ODone out -> exists m, run_go m (compile_prog p) = ODone out.
Proof. exact compile_correct_partial. Qed.
Print Assumptions C01_compile_correct_partial.

(** … and it does so at every sufficiently large fuel (the result does not depend on the fuel chosen). *)
Theorem C01_compile_correct_eventually : forall p, pap_args_pure p -> forall n out,
  run_src n p = ODone out -> exists m0, forall m, m0 <= m -> run_go m (compile_prog p) = ODone out.
Proof. exact (compile_correct_eventually_d DFc 0). Qed.
Print Assumptions C01_compile_correct_eventually.

(** More fuel never changes a completed run, in either semantics; hence "the output" is well defined … *)
Theorem C01_run_src_mono : forall m m' p out, m <= m' -> run_src m p = ODone out -> run_src m' p = ODone out.
Proof. exact run_src_mono. Qed.
Print Assumptions C01_run_src_mono.
Theorem C01_run_go_mono : forall m m' g out, m <= m' -> run_go m g = ODone out -> run_go m' g = ODone out.
Proof. exact run_go_mono. Qed.
Print Assumptions C01_run_go_mono.

(** … and every completed run of the emitted Go program prints exactly what the source prints. *)
Theorem C01_go_output_is_source_output : forall p n out,
  pap_args_pure p -> run_src n p = ODone out ->
  forall m out', run_go m (compile_prog p) = ODone out' -> out' = out.
Proof. exact go_output_is_source_output. Qed.
Print Assumptions C01_go_output_is_source_output.

(** The full statement is false on the model of the pinned code: *)
Theorem C01_compile_correct_full_refuted : ~ C01_compile_correct_full_statement.
Proof. exact compile_correct_full_refuted. Qed.
Print Assumptions C01_compile_correct_full_refuted.

(** A known defect (finding (a)): a well-formed program with an effectful argument in a partial
    application prints differently in the emitted Go ([let g = add (say "arg" 1)]: the source prints
    "arg" once when [g] is made, the Go prints it at every call of [g]). *)
Theorem C01_compile_effectful_pap_refuted :
  exists p n m o1 o2, wt p /\ run_src n p = ODone o1 /\ run_go m (compile_prog p) = ODone o2 /\ o1 <> o2.
Proof.
  exists ex_effectful_pap, 100, 200. eexists. eexists.
  split; [exact ex_effectful_pap_wt|]. split; [exact ex_effectful_pap_src|]. split; [exact ex_effectful_pap_go|].
  vm_compute. discriminate.
Qed.
Print Assumptions C01_compile_effectful_pap_refuted.

(** The behaviours the property names, for any expression occurring in any context of a program [p] of the
    fragment ([senv]/[genv]: related source / target environments; [Geval genv e t v t']: the Go expression
    [e] evaluates in [genv] from trace [t] to value [v] and trace [t'] at every sufficiently large fuel). *)

(** only the taken branch of an [if] is evaluated — whatever the other branch is *)
Theorem C01_untaken_branch_silent : forall p, pap_args_pure p ->
  forall n senv genv c bt bf t (cv:bool) t1 v t2 k,
  wfe true (ok p) (EIf c bt bf) -> erel DFc (ok p) (fc_gfuncs p) senv genv ->
  eval (p_funs p) n senv c t = Done (VBool cv) t1 ->
  eval_block (p_funs p) n senv (if cv then bt else bf) t1 = Done v t2 ->
  exists gv, Geval (fc_gfuncs p) (fc_gvars p) genv (compile DFc k (EIf c bt bf)) t gv t2 /\ vrel DFc (ok p) (fc_gfuncs p) v gv.
Proof. exact (untaken_branch_silent_d DFc 0). Qed.
Print Assumptions C01_untaken_branch_silent.

(** only the needed operand of [&&] / [||] is evaluated *)
Theorem C01_short_circuit : forall p, pap_args_pure p ->
  forall n senv genv a b t t1 k (is_and:bool),
  wfe true (ok p) (EBin (if is_and then OAnd else OOr) a b) -> erel DFc (ok p) (fc_gfuncs p) senv genv ->
  eval (p_funs p) n senv a t = Done (VBool (negb is_and)) t1 ->
  Geval (fc_gfuncs p) (fc_gvars p) genv (compile DFc k (EBin (if is_and then OAnd else OOr) a b)) t (GVBool (negb is_and)) t1.
Proof. exact (short_circuit_d DFc 0). Qed.
Print Assumptions C01_short_circuit.

(** a match dispatches to the arm of the constructor the value was built with *)
Theorem C01_match_dispatches_to_constructor : forall p, pap_args_pure p ->
  forall n senv genv e u arms def t c payload t1 bx b v t2 k,
  wfe true (ok p) (EMatchU e u arms def) -> erel DFc (ok p) (fc_gfuncs p) senv genv ->
  eval (p_funs p) n senv e t = Done (VUnion u c payload) t1 ->
  find_arm c arms = Some (bx, b) ->
  eval_block (p_funs p) n
    (match bx, payload with Some x, Some pv => (x, pv) :: senv | _, _ => senv end) b t1 = Done v t2 ->
  (bx <> None -> payload <> None) ->
  exists gv, Geval (fc_gfuncs p) (fc_gvars p) genv (compile DFc k (EMatchU e u arms def)) t gv t2 /\ vrel DFc (ok p) (fc_gfuncs p) v gv.
Proof. exact (match_dispatches_to_constructor_d DFc 0). Qed.
Print Assumptions C01_match_dispatches_to_constructor.

(** operands / arguments / components are evaluated left to right *)
Theorem C01_effects_in_source_order : forall p, pap_args_pure p ->
  forall n senv genv es t vs t' k,
  Forall (wfe true (ok p)) es -> erel DFc (ok p) (fc_gfuncs p) senv genv ->
  evals (p_funs p) n senv es t = Done vs t' ->
  exists gvs, Gevals (fc_gfuncs p) (fc_gvars p) genv (compile_list DFc k es) t gvs t' /\ Forall2 (vrel DFc (ok p) (fc_gfuncs p)) vs gvs.
Proof. exact (effects_in_source_order_d DFc 0). Qed.
Print Assumptions C01_effects_in_source_order.

(** record literals may be written in any order: the initialisers run in the order written, the value (and so
    [=], field access) does not depend on that order *)
Example C01_example_record_order :
  pap_args_pure ex_record_order /\
  run_src 100 ex_record_order =
  ODone ("n1" ++ nl ++ "n2" ++ nl ++ "n3" ++ nl ++ "n4" ++ nl ++ "true" ++ nl ++ "true" ++ nl ++ "true" ++ nl ++
         "2" ++ nl ++ "1" ++ nl ++ "y" ++ nl ++ "n10" ++ nl ++ "n20" ++ nl ++ "30" ++ nl)%string /\
  run_go 200 (compile_prog ex_record_order) = run_src 100 ex_record_order.
Proof. exact (conj ex_record_order_pure (conj ex_record_order_runs ex_record_order_go_runs)). Qed.

(** the oracle's answer to [C01 (fragment <prog>)] is sound: a program it accepts satisfies the hypotheses *)
Theorem C01_fragment_check_sound : forall strict n p,
  wfp_b strict (p_unions p) n p = true -> if strict then pap_args_pure p else wt p.
Proof. intros strict n p H. destruct strict; exact (wfp_b_sound _ n p H). Qed.
Print Assumptions C01_fragment_check_sound.

(** non-vacuity: a program of the fragment that uses closures, a partial application in a pipe, slices with
    callbacks, a record, a union with a match, a string match, destructuring, interpolation, short-circuit
    and recursion; it runs and prints in both semantics. *)
Example C01_example_in_fragment : wt ex_demo /\ pap_args_pure ex_demo.
Proof. split; [exact ex_demo_wt|exact ex_demo_pure]. Qed.
Example C01_example_source_output :
  run_src 100 ex_demo =
  ODone ("elem" ++ nl ++ "[4 3]" ++ nl ++ "total=7 tag=b?" ++ nl ++ "[12 10 0]" ++ nl ++ "small" ++ nl ++ "4;3;120" ++ nl)%string.
Proof. exact ex_demo_runs. Qed.
Example C01_example_go_output :
  run_go 200 (compile_prog ex_demo) =
  ODone ("elem" ++ nl ++ "[4 3]" ++ nl ++ "total=7 tag=b?" ++ nl ++ "[12 10 0]" ++ nl ++ "small" ++ nl ++ "4;3;120" ++ nl)%string.
Proof. exact ex_demo_go_runs. Qed.
