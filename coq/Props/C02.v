(** C02 — inferred Go signatures are the principal Folang types, mapped as documented.
    Statements only; each is closed by [exact] of a lemma of Core/UnifyProofs.v, Core/InferProofs.v,
    Core/ResolverProofs.v or Core/ResolverBoundProofs.v (examples by evaluation).

    What is proved here is about the *reference* inference [infer_fun] of Core/Infer.v
    (constraint generation + Robinson unification + first-occurrence numbering + [sig_to_go]).
    That fc's own inference (fc/infer.fo, a different algorithm) emits the same signatures is
    established by correspondence on generated programs (harness/c02*.go), not by proof. *)
From Coq Require Import String List Arith.
From FoVerif Require Import Core.Unify Core.UnifyProofs Core.Infer Core.InferProofs.
Import ListNotations.

Theorem C02_unify_sound : forall n es sg, unify n es = Ok sg -> solves sg es.
Proof. exact unify_sound. Qed.
Print Assumptions C02_unify_sound.

(** most general: every unifier [th] factors through the computed one (th o sg = th) *)
Theorem C02_unify_mgu : forall n es sg, unify n es = Ok sg ->
  forall th, unifies th es -> forall t, app th (app_seq sg t) = app th t.
Proof. exact unify_mgu. Qed.
Print Assumptions C02_unify_mgu.

Theorem C02_unify_complete : forall n es, unify n es = Clash -> forall th, ~ unifies th es.
Proof. exact unify_complete. Qed.
Print Assumptions C02_unify_complete.

Theorem C02_unify_terminates : forall es, exists n, forall m, n <= m -> unify m es <> Fuel.
Proof. exact unify_fuel_sufficient. Qed.
Print Assumptions C02_unify_terminates.

(** every solution of the generated constraints gives a derivation *)
Theorem C02_gen_sound : forall D e G n t es n', gen D G e n = Some (t, es, n') ->
  forall th, unifies th es -> has D (menv th G) e (app th t).
Proof. exact gen_sound. Qed.
Print Assumptions C02_gen_sound.

(** every derivation extends (on the fresh variables) to a solution of the generated constraints *)
Theorem C02_gen_complete : forall D, decls_ok D -> forall e G n th t',
  has D (menv th G) e t' -> env_below n G ->
  exists t es n' th', gen D G e n = Some (t, es, n') /\ n <= n' /\ agree n th th' /\
                      unifies th' es /\ app th' t = t' /\ below n' t /\ eqs_below n' es.
Proof. exact gen_complete. Qed.
Print Assumptions C02_gen_complete.

(** the inferred scheme, and every substitution instance of it, is a typing of the function *)
Theorem C02_infer_sound : forall D fuel fd k ptys rty,
  fun_ok fd -> infer_fun D fuel fd = Inferred k ptys rty ->
  forall rho, has_fun D fd (map (app rho) ptys) (app rho rty).
Proof. exact infer_sound. Qed.
Print Assumptions C02_infer_sound.

(** principal: every typing of the function is a substitution instance of the inferred scheme *)
Theorem C02_infer_principal : forall D, decls_ok D -> forall fuel fd k ptys rty,
  fun_ok fd -> infer_fun D fuel fd = Inferred k ptys rty ->
  forall ptys' rty', has_fun D fd ptys' rty' ->
  exists rho, ptys' = map (app rho) ptys /\ rty' = app rho rty.
Proof. exact infer_principal. Qed.
Print Assumptions C02_infer_principal.

(** a typable function is never answered ILLTYPED, and enough fuel always exists *)
Theorem C02_infer_complete : forall D, decls_ok D -> forall fuel fd ptys' rty',
  fun_ok fd -> has_fun D fd ptys' rty' -> infer_fun D fuel fd <> IllTyped.
Proof. exact infer_complete. Qed.
Print Assumptions C02_infer_complete.

Theorem C02_infer_terminates : forall D fd, exists n, forall m, n <= m -> infer_fun D m fd <> OutOfFuel.
Proof. exact infer_fuel_sufficient. Qed.
Print Assumptions C02_infer_terminates.

(** type parameters are T0..T(k-1), numbered by first occurrence in the parameter list, then the result *)
Theorem C02_numbering_canonical : forall D fuel fd k ptys rty,
  infer_fun D fuel fd = Inferred k ptys rty -> fo_vars_list (ptys ++ [rty]) [] = seq 0 k.
Proof. exact numbering_canonical. Qed.
Print Assumptions C02_numbering_canonical.

(** if the function without an annotation on parameter i already gets the ground type [a] for it,
    annotating [x : a] leaves the inferred scheme (hence the emitted signature) unchanged *)
Theorem C02_annotation_erasure : forall D, decls_ok D -> forall fd i x a fuel fuel' k P r,
  fun_ok fd -> below 0 a ->
  nth_error (f_params fd) i = Some (x, None) ->
  infer_fun D fuel fd = Inferred k P r ->
  nth_error P i = Some a ->
  infer_fun D fuel' (annotate fd i a) <> OutOfFuel ->
  infer_fun D fuel' (annotate fd i a) = Inferred k P r.
Proof. exact annotation_erasure. Qed.
Print Assumptions C02_annotation_erasure.

(** two references to one generic function are instantiated with disjoint fresh variables *)
Theorem C02_instances_independent : forall D, decls_ok D ->
  forall p s G1 args1 n1 t1 es1 n1' G2 args2 n2 t2 es2 n2',
  prim_scheme D p = Some s ->
  gen D G1 (XPrim p args1) n1 = Some (t1, es1, n1') ->
  gen D G2 (XPrim p args2) n2 = Some (t2, es2, n2') ->
  n1' <= n2 ->
  forall u1 u2 v, In u1 (sres s :: sargs s) -> In u2 (sres s :: sargs s) ->
    occurs v (shift n1 u1) = true -> occurs v (shift n2 u2) = true -> False.
Proof. exact instances_independent. Qed.
Print Assumptions C02_instances_independent.

(** the fresh-variable counter only grows, so a later reference always starts above an earlier one *)
Theorem C02_gen_counter_monotone : forall D e G n t es n', gen D G e n = Some (t, es, n') -> n <= n'.
Proof. exact gen_counter. Qed.
Print Assumptions C02_gen_counter_monotone.

Local Open Scope string_scope.

(** declarations: 0 = record Rec {RX:int; RS:string}; 1 = record Box<T> {BV:T; BN:int};
    2 = union Opt<T> = Som of T | Non.
    globals: 0 = slice.Map, 1 = slice.Head, 2 = frt.Fst, 3 = idf : T -> T *)
Definition exD : decls :=
  mkDecls
    [DRecord 0 [tint; tstring]; DRecord 1 [TVar 0; tint]; DUnion 1 [Some (TVar 0); None]]
    [mkScheme 2 [tfun [TVar 0] (TVar 1); tslice (TVar 0)] (tslice (TVar 1));
     mkScheme 1 [tslice (TVar 0)] (TVar 0);
     mkScheme 2 [ttuple [TVar 0; TVar 1]] (TVar 0);
     mkScheme 1 [TVar 0] (TVar 0)].
Definition exNames (i:nat) : string := match i with 0 => "Rec" | 1 => "Box" | _ => "Opt" end.

Definition show (name:string) (pn:list string) (fd:fundef) : string :=
  match infer_fun exD 1000 fd with
  | Inferred k p r => sig_to_go exNames name pn k p r
  | IllTyped => "ILLTYPED"
  | OutOfFuel => "FUEL"
  end.

(** let app f x = f x *)
Definition ex_app := mkFun [(0, None); (1, None)] (XCallP 0 [XVar 1]).
Example C02_example_app :
  infer_fun exD 1000 ex_app = Inferred 2 [tfun [TVar 0] (TVar 1); TVar 0] (TVar 1).
Proof. vm_compute. reflexivity. Qed.
Example C02_example_app_go :
  show "app" ["f"; "x"] ex_app = "func app[T0 any, T1 any](f func (T0) T1, x T0) T1".
Proof. vm_compute. reflexivity. Qed.

(** let add10 a = a + 10   (the typed operand determines a) *)
Example C02_example_add10 :
  show "add10" ["a"] (mkFun [(0, None)] (XPrim PArith [XVar 0; XLit LInt])) = "func add10(a int) int".
Proof. vm_compute. reflexivity. Qed.

(** let ika a b = a + b   (nothing determines the type: generic, as the documentation says) *)
Example C02_example_ika :
  show "ika" ["a"; "b"] (mkFun [(0, None); (1, None)] (XPrim PArith [XVar 0; XVar 1]))
  = "func ika[T0 any](a T0, b T0) T0".
Proof. vm_compute. reflexivity. Qed.

(** let chain f xs = let ys = slice.Map f xs in let (a, b) = slice.Head ys in (b, a) *)
Example C02_example_chain :
  show "chain" ["f"; "xs"]
    (mkFun [(0, None); (1, None)]
       (XLet 2 (XPrim (PGlobal 0) [XVar 0; XVar 1])
          (XLetTup [Some 3; Some 4] (XPrim (PGlobal 1) [XVar 2])
             (XPrim (PTuple 2) [XVar 4; XVar 3]))))
  = "func chain[T0 any, T1 any, T2 any](f func (T0) frt.Tuple2[T1, T2], xs []T0) frt.Tuple2[T2, T1]".
Proof. vm_compute. reflexivity. Qed.

(** numbering follows the parameter list, not the order of appearance in the result:
    let flip x g = (g x, x) *)
Example C02_example_numbering :
  show "flip" ["x"; "g"]
    (mkFun [(0, None); (1, None)] (XPrim (PTuple 2) [XCallP 1 [XVar 0]; XVar 0]))
  = "func flip[T0 any, T1 any](x T0, g func (T0) T1) frt.Tuple2[T1, T0]".
Proof. vm_compute. reflexivity. Qed.

(** two instantiations of one generic function in one body: let two x y = (idf x, idf (y + 1)) *)
Example C02_example_two_instances :
  show "two" ["x"; "y"]
    (mkFun [(0, None); (1, None)]
       (XPrim (PTuple 2) [XPrim (PGlobal 3) [XVar 0];
                          XPrim (PGlobal 3) [XPrim PArith [XVar 1; XLit LInt]]]))
  = "func two[T0 any](x T0, y int) frt.Tuple2[T0, int]".
Proof. vm_compute. reflexivity. Qed.

(** records, generic records, unions, lambdas, partial application:
    let mk a xs = ({BV=a; BN=slice.Head xs}, Som {RX=1; RS="s"}, slice.Map (fun x -> x + 1) xs) *)
Example C02_example_records :
  show "mk" ["a"; "xs"]
    (mkFun [(0, None); (1, None)]
       (XPrim (PTuple 3)
          [XPrim (PRecord 1) [XVar 0; XPrim (PGlobal 1) [XVar 1]];
           XPrim (PCtor 2 0) [XPrim (PRecord 0) [XLit LInt; XLit LString]];
           XPrim (PGlobal 0) [XLam [2] (XPrim PArith [XVar 2; XLit LInt]); XVar 1]]))
  = "func mk[T0 any](a T0, xs []int) frt.Tuple3[Box[T0], Opt[Rec], []int]".
Proof. vm_compute. reflexivity. Qed.

(** annotation erasure on a concrete function: let f (a:int) b = if a < b then a else b *)
Example C02_example_erasure :
  let body := XPrim PIf [XPrim PCmp [XVar 0; XVar 1]; XVar 0; XVar 1] in
  infer_fun exD 1000 (mkFun [(0, Some tint); (1, None)] body) = Inferred 0 [tint; tint] tint /\
  infer_fun exD 1000 (annotate (mkFun [(0, Some tint); (1, None)] body) 1 tint) = Inferred 0 [tint; tint] tint.
Proof. vm_compute. split; reflexivity. Qed.

(** an ill-typed function is answered ILLTYPED: let bad (a:int) = a + "s";  and the occurs check: let w f = f f *)
Example C02_example_illtyped :
  show "bad" ["a"] (mkFun [(0, Some tint)] (XPrim PArith [XVar 0; XLit LString])) = "ILLTYPED" /\
  show "w" ["f"] (mkFun [(0, None)] (XCallP 0 [XVar 0])) = "ILLTYPED".
Proof. vm_compute. split; reflexivity. Qed.

(** the example declarations satisfy the hypothesis of the theorems *)
Example C02_example_decls_ok : decls_ok exD.
Proof. unfold decls_ok, exD, scheme_ok; cbn. repeat constructor. Qed.

(* ================================================================== fc's own resolver (fc/infer.fo, transcribed in Core/Resolver.v) *)
From FoVerif Require Import Core.Resolver Core.ResolverProofs.

(** For every comparison [later] of variable names and every enumeration order [enum] of dict.Keys
    that keeps membership: if the loop of updateResolver ended without silently ignoring a clash
    (flag false) and every variable resolves (no cyclic type), the induced substitution unifies
    every equation. *)
Theorem C02_resolver_sound : forall later enum, (forall l x, In x (enum l) <-> In x l) ->
  forall n m es st,
  solve later enum n es = SSolved st false ->
  (forall v, exists t, resolve m [] st v = ROk t) ->
  unifies (induced m st) es.
Proof. exact resolver_sound. Qed.
Print Assumptions C02_resolver_sound.

(** On unifiable well-formed equations the resolver never panics and never ignores a clash, and every
    unifier factors through what it resolves (most general). *)
Theorem C02_resolver_most_general : forall later enum, (forall l x, In x (enum l) <-> In x l) ->
  forall n es th,
  (forall l r, In (l,r) es -> wf l = true /\ wf r = true) -> unifies th es ->
  solve later enum n es = SFuel \/
  exists st, solve later enum n es = SSolved st false /\
    forall m v t, resolve m [] st v = ROk t -> app th t = th v.
Proof. exact resolver_most_general. Qed.
Print Assumptions C02_resolver_most_general.

(** Agreement with the reference (Robinson) unification: where [unify] answers [sg], the resolver's
    substitution also solves the equations and the two are instances of each other - for every
    enumeration order, so the result is order-independent up to renaming of the remaining variables. *)
Theorem C02_resolver_agrees_with_unify : forall later enum, (forall l x, In x (enum l) <-> In x l) ->
  forall k es sg n st g m,
  (forall l r, In (l,r) es -> wf l = true /\ wf r = true) ->
  unify k es = Ok sg ->
  solve later enum n es = SSolved st g ->
  (forall v, exists t, resolve m [] st v = ROk t) ->
  g = false /\
  unifies (induced m st) es /\
  (forall v, app_seq sg (induced m st v) = app_seq sg (TVar v)) /\
  (forall t, app (induced m st) (app_seq sg t) = app (induced m st) t).
Proof. exact resolver_agrees_with_unify. Qed.
Print Assumptions C02_resolver_agrees_with_unify.

(** PARTIAL: the two hypotheses "the loop ended" and "every variable resolves" are not discharged.
    The full statements would be (not proved):
      - for unifiable well-formed equations there is a fuel bound for [update_resolver]
        (argument: with a unifier th fixed, every relation produced in a pass either has a strictly
        smaller size of th(source) than the relation it came from, or the pass merged two classes /
        gave a class its first structure, which happens at most 2 * #variables times);
      - for unifiable equations [resolve] never answers [RCycle] (a cycle would give a type properly
        containing itself under th).
    Without unifiability both fail: *)
Definition C02_resolver_terminates_on_unifiable_statement : Prop :=
  forall later enum, (forall l x, In x (enum l) <-> In x l) ->
  forall es th, (forall l r, In (l,r) es -> wf l = true /\ wf r = true) -> unifies th es ->
  exists n, solve later enum n es <> SFuel /\
  forall st g, solve later enum n es = SSolved st g -> exists m, forall v, exists t, resolve m [] st v = ROk t.

(** the loop of updateResolver diverges on T1 = []T1, T1 = [][]T1 (every fuel is exhausted) *)
Theorem C02_update_resolver_can_diverge : forall n, solve Nat.ltb enum_id n es_div = SFuel.
Proof. exact update_resolver_can_diverge. Qed.
Print Assumptions C02_update_resolver_can_diverge.

(** refuted without the no-ignored-clash hypothesis: compositeTp ignores a clash of two base types *)
Theorem C02_resolver_sound_without_flag_refuted :
  exists es st, (forall th, ~ unifies th es) /\
    solve Nat.ltb enum_id 10 es = SSolved st true /\
    (forall v, exists t, resolve 10 [] st v = ROk t) /\
    ~ unifies (induced 10 st) es.
Proof. exact resolver_sound_without_flag_refuted. Qed.
Print Assumptions C02_resolver_sound_without_flag_refuted.

Example C02_example_resolver_panic : solve Nat.ltb enum_id 10 [(TVar 0, tint); (TVar 0, tslice tint)] = SPanic.
Proof. exact resolver_panics_on_shape_clash. Qed.

(** the signature of  let chain f xs = ...  computed with fc's resolver instead of Robinson unification *)
Example C02_example_resolver_chain :
  infer_fun_resolver Nat.ltb enum_id exD 100
    (mkFun [(0, None); (1, None)]
       (XLet 2 (XPrim (PGlobal 0) [XVar 0; XVar 1])
          (XLetTup [Some 3; Some 4] (XPrim (PGlobal 1) [XVar 2])
             (XPrim (PTuple 2) [XVar 4; XVar 3]))))
  = RInferred 3 [tfun [TVar 0] (ttuple [TVar 1; TVar 2]); tslice (TVar 0)] (ttuple [TVar 2; TVar 1]) false.
Proof. vm_compute. reflexivity. Qed.

(* ================================================================== the bounded loop of updateResolver (fc/infer.fo since cc92c84) *)
From Coq Require Import NArith.
From FoVerif Require Import Core.ResolverBound Core.ResolverBoundProofs.

(** termination: with fuel >= 1002 the bounded loop never runs out of fuel - for every resolver, every
    relation list, every enumeration order and name comparison (the measure is the round counter) *)
Theorem C02_bounded_resolver_terminates : forall later enum fuel st rels,
  (1002 <= N.of_nat fuel)%N -> update_resolver_b later enum fuel st rels <> BFuel.
Proof. exact update_resolver_b_terminates. Qed.
Print Assumptions C02_bounded_resolver_terminates.

(** agreement: whenever the unbounded loop ends within 1000 further rounds and 100000 produced
    relations, the bounded loop returns the same resolver (and the same ignored-clash flag) *)
Theorem C02_bounded_resolver_agrees : forall later enum fuel st rels st' g r w,
  update_resolver later enum fuel st rels = LDone st' g ->
  run_stats later enum fuel st rels = Some (r, w) ->
  (r <= round_bound)%N -> (w <= work_bound)%N ->
  update_resolver_b later enum fuel st rels = BDone st' g.
Proof. exact update_resolver_b_agrees. Qed.
Print Assumptions C02_bounded_resolver_agrees.

(** the statistics exist for every run of the unbounded loop that ends *)
Theorem C02_run_stats_defined : forall later enum fuel st rels st' g,
  update_resolver later enum fuel st rels = LDone st' g ->
  exists r w, run_stats later enum fuel st rels = Some (r, w).
Proof. exact run_stats_defined. Qed.
Print Assumptions C02_run_stats_defined.

(** x = (x, x), x = ((x, x), (x, x)): the relation list doubles in every pass (3, 6, 12, ... 384),
    so a bound on the rounds alone is not enough; the bounded loop reports it, and the slice cycle too *)
Example C02_doubling_relations_grow :
  map (fun k => option_map (@length rel) (rels_after Nat.ltb enum_id k [] rels_dbl)) [1; 2; 3; 4; 5; 6; 7; 8]
  = [Some 3; Some 6; Some 12; Some 24; Some 48; Some 96; Some 192; Some 384].
Proof. exact doubling_relations_double. Qed.
Example C02_bounded_loop_reports_doubling : bsolve_rels Nat.ltb enum_id bound_fuel rels_dbl = BSNoConv.
Proof. exact bounded_loop_reports_doubling. Qed.
Example C02_bounded_loop_reports_slices : bsolve_rels Nat.ltb enum_id bound_fuel rels_slc = BSNoConv.
Proof. exact bounded_loop_reports_slices. Qed.
