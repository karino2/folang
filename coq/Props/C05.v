(** C05 — transpilation is deterministic: no mechanism that enumerates a dictionary lets the
    enumeration order influence output bytes or the accept/reject decision.
    Site-local theorems (one per enumerating mechanism) + the generated inventory gen/DictSites.v
    ("the source has no other enumeration site"); composition through the unmodelled parts of the
    compiler rests on the permuted-dict builds run by the harness. Statements only. *)
From Coq Require Import List Arith Permutation Sorted String.
From FoVerif Require Import Driver.Order Driver.OrderProofs Front.Exhaust Front.ExhaustProofs.
Import ListNotations.

(** record literal resolution (scLookupRecFacCur, after the fix): any two enumeration orders of the
    scope's record dictionary and any two (possibly unstable) sorting routines give the same record *)
Theorem C05_rec_lookup_order_independent :
  forall sort1 sort2 : list recfac -> list recfac,
  (forall l, Sorted name_le (sort1 l)) -> (forall l, Permutation (sort1 l) l) ->
  (forall l, Sorted name_le (sort2 l)) -> (forall l, Permutation (sort2 l) l) ->
  forall e1 e2 fs, NoDup (map r_name e1) -> Permutation e1 e2 ->
  rec_lookup sort1 e1 fs = rec_lookup sort2 e2 fs.
Proof. exact rec_lookup_order_independent. Qed.
Print Assumptions C05_rec_lookup_order_independent.

(** the code before the fix: the statement was false (finding d) *)
Theorem C05_rec_lookup_old_order_dependent_refuted :
  exists e1 e2 fs, Permutation e1 e2 /\ NoDup (map r_name e1) /\ rec_lookup_old e1 fs <> rec_lookup_old e2 fs.
Proof. exact rec_lookup_old_order_dependent_refuted. Qed.
Print Assumptions C05_rec_lookup_old_order_dependent_refuted.

(** piRegAll: the scope after registering a package_info does not depend on the order of dict.KVs *)
Theorem C05_pi_reg_all_order_independent :
  forall (V : Type) (full_name : nat -> nat) (e1 e2 : list (nat * V)) scope,
  (forall a b, full_name a = full_name b -> a = b) ->
  NoDup (map fst e1) -> Permutation e1 e2 ->
  forall k, get k (pi_reg_all full_name e1 scope) = get k (pi_reg_all full_name e2 scope).
Proof. exact @pi_reg_all_order_independent. Qed.
Print Assumptions C05_pi_reg_all_order_independent.

(** eqsUnion: the union set does not depend on the order of dict.Keys of either operand, and is
    exactly the union *)
Theorem C05_eqs_union_order_independent :
  forall a1 a2 b1 b2, Permutation a1 a2 -> Permutation b1 b2 ->
  forall k, get k (eqs_union a1 b1) = get k (eqs_union a2 b2).
Proof. exact eqs_union_order_independent. Qed.
Print Assumptions C05_eqs_union_order_independent.

Theorem C05_eqs_union_spec :
  forall a b k, get k (eqs_union a b) = if in_dec Nat.eq_dec k (a ++ b) then Some true else None.
Proof. exact eqs_union_spec. Qed.
Print Assumptions C05_eqs_union_spec.

(** rsRegisterNewEI *)
Theorem C05_rs_register_order_independent :
  forall (V : Type) (ei : V) (m1 m2 : list nat) resolver, Permutation m1 m2 ->
  forall k, get k (rs_register_new_ei ei m1 resolver) = get k (rs_register_new_ei ei m2 resolver).
Proof. exact @rs_register_order_independent. Qed.
Print Assumptions C05_rs_register_order_independent.

(** exaustiveCheck: accept/reject does not depend on dict.KVs order (the NAMED case may differ: only
    the decision is claimed, as the property says) *)
Theorem C05_exhaust_decision_order_independent :
  forall enum enum', (forall l, Permutation (enum l) l) -> (forall l, Permutation (enum' l) l) ->
  forall cases arms has_default,
    check enum cases arms has_default = Accept <-> check enum' cases arms has_default = Accept.
Proof. exact decision_order_independent. Qed.
Print Assumptions C05_exhaust_decision_order_independent.

(** the oracle's sort satisfies the hypotheses; non-vacuity *)
Theorem C05_oracle_sort_ok : (forall l, Sorted name_le (isort l)) /\ (forall l, Permutation (isort l) l).
Proof. exact (conj isort_sorted isort_perm). Qed.
Print Assumptions C05_oracle_sort_ok.
Example C05_example_three_records :
  rec_lookup isort [mkRec 2 [10; 11]; mkRec 3 [10; 11]; mkRec 1 [10; 11]] [10; 11]
  = rec_lookup isort [mkRec 3 [10; 11]; mkRec 1 [10; 11]; mkRec 2 [10; 11]] [10; 11].
Proof. reflexivity. Qed.
