(** C18 — build_sample_md renders every listed sample verbatim, in order.
    Statements only; each is closed by [exact] of a lemma of Driver/SampleMdProofs.v.

    [fs] is any file system (path -> content, [None] = cannot be read), [path_join] any
    filepath.Join.  [entries content] are the non-empty lines of the list file (the pieces of
    Split "\n", characterised by C14_split_spec), [line_file] / [line_title] the text before /
    after the first space of a line (the whole line when there is no space: title = file name). *)
From Coq Require Import List Ascii String ZArith Bool.
From FoVerif Require Import Pkg.Buf Pkg.Strings Pkg.Frt Driver.SampleMd Driver.SampleMdProofs.
Import ListNotations.

(** [line_file] / [line_title] are what the property's text says *)
Theorem C18_line_columns : forall l f t, split_space l = (f, t) ->
  ~ In " "%char f /\ match t with Some t' => l = f ++ " "%char :: t' | None => l = f end.
Proof. exact split_space_spec. Qed.
Print Assumptions C18_line_columns.

(** one entry: a panic naming the file when it cannot be read, else the section spelled out:
    "### " title, blank line, fence, the content verbatim, newline, fence, blank line,
    "generated go: [gen_<base>.go](./gen_<base>.go)", blank line *)
Theorem C18_entry_is_section : forall fs path_join dir line, line <> [] ->
  convOne fs path_join dir line =
  match fs (path_join dir (line_file line)) with
  | None => Panic (b "Can't open file " ++ line_file line)
  | Some content =>
      Ok (b "### " ++ line_title line ++ [nl; nl] ++
          b "```" ++ [nl] ++ content ++ [nl] ++ b "```" ++ [nl; nl] ++
          b "generated go: [" ++ (b "gen_" ++ TrimSuffix (b ".fo") (line_file line) ++ b ".go") ++
          b "](./" ++ (b "gen_" ++ TrimSuffix (b ".fo") (line_file line) ++ b ".go") ++ b ")" ++ [nl; nl])
  end.
Proof. exact (fun fs path_join dir line _ => convOne_spec fs path_join dir line). Qed.
Print Assumptions C18_entry_is_section.

(** every listed file readable: README.md = header, then the sections of the non-empty lines,
    in list order, separated by one newline *)
Theorem C18_readme_is_header_then_sections : forall fs path_join dir content,
  (forall line, In line (entries content) -> readable fs path_join dir line) ->
  render_readme fs path_join dir content =
  Ok ((b "## Folang Sample " ++ [nl; nl; nl]) ++
      join [nl] (map (section_of fs path_join dir) (entries content))).
Proof. exact readme_is_header_then_sections. Qed.
Print Assumptions C18_readme_is_header_then_sections.

Theorem C18_order_preserved : forall fs path_join dir content l1 x l2 y l3,
  (forall line, In line (entries content) -> readable fs path_join dir line) ->
  entries content = l1 ++ x :: l2 ++ y :: l3 ->
  exists pre mid post,
    render_readme fs path_join dir content =
    Ok (header ++ pre ++ section_of fs path_join dir x ++ mid ++ section_of fs path_join dir y ++ post).
Proof. exact order_preserved. Qed.
Print Assumptions C18_order_preserved.

(** the tool fails (panics before README.md is written) exactly when some listed file cannot be read *)
Theorem C18_unreadable_fails : forall fs path_join dir content,
  (exists m, render_readme fs path_join dir content = Panic m) <->
  (exists line, In line (entries content) /\ ~ readable fs path_join dir line).
Proof. exact unreadable_fails. Qed.
Print Assumptions C18_unreadable_fails.

(** ... with the first unreadable file in the message *)
Theorem C18_first_unreadable_named : forall fs path_join dir content pre line post,
  entries content = pre ++ line :: post ->
  (forall l, In l pre -> readable fs path_join dir l) -> ~ readable fs path_join dir line ->
  render_readme fs path_join dir content = Panic (b "Can't open file " ++ line_file line).
Proof. exact first_unreadable_panics. Qed.
Print Assumptions C18_first_unreadable_named.

(** histories (re-runs in the same directory, list and samples edited in between): README.md is
    exactly the rendering of the last run when all its files were readable, whatever README.md held
    before (sys.WriteFile truncates), and a failing run leaves README.md as the earlier runs left it *)
Theorem C18_history_last_run : forall path_join h fs content before dir,
  ((forall line, In line (entries content) -> readable fs path_join dir line) ->
   tool_history path_join before dir (h ++ [(fs, content)]) =
   Some (header ++ join [nl] (map (section_of fs path_join dir) (entries content)))) /\
  ((exists line, In line (entries content) /\ ~ readable fs path_join dir line) ->
   tool_history path_join before dir (h ++ [(fs, content)]) = tool_history path_join before dir h).
Proof. exact history_last_run. Qed.
Print Assumptions C18_history_last_run.

(** non-vacuity *)
Definition render_ok (o : outcome bytes) : option bytes := match o with Ok s => Some s | Panic _ => None end.

Example C18_example_render :
  render_files [(b "d/a.fo", b "AAA"); (b "d/b", b "B`%")] (b "d")
               (b "a.fo Title one" ++ [nl; nl] ++ b "b" ++ [nl])
  = Ok (b "## Folang Sample " ++ [nl; nl; nl] ++
        b "### Title one" ++ [nl; nl] ++ b "```" ++ [nl] ++ b "AAA" ++ [nl] ++ b "```" ++ [nl; nl] ++
        b "generated go: [gen_a.go](./gen_a.go)" ++ [nl; nl] ++ [nl] ++
        b "### b" ++ [nl; nl] ++ b "```" ++ [nl] ++ b "B`%" ++ [nl] ++ b "```" ++ [nl; nl] ++
        b "generated go: [gen_b.go](./gen_b.go)" ++ [nl; nl]).
Proof. vm_compute. reflexivity. Qed.

Example C18_example_missing :
  render_files [(b "d/a.fo", b "AAA")] (b "d") (b "a.fo T" ++ [nl] ++ b "c.fo x" ++ [nl])
  = Panic (b "Can't open file c.fo").
Proof. vm_compute. reflexivity. Qed.

Example C18_example_history :
  history_files None (b "d")
    [([(b "d/a.fo", b "AAA"); (b "d/b.fo", b "BBBBBBBBBBBB")], b "a.fo" ++ [nl] ++ b "b.fo B");
     ([(b "d/a.fo", b "A")], b "a.fo" ++ [nl] ++ b "b.fo B");
     ([(b "d/a.fo", b "A")], b "a.fo")]
  = [render_ok (render_files [(b "d/a.fo", b "AAA"); (b "d/b.fo", b "BBBBBBBBBBBB")] (b "d") (b "a.fo" ++ [nl] ++ b "b.fo B"));
     render_ok (render_files [(b "d/a.fo", b "AAA"); (b "d/b.fo", b "BBBBBBBBBBBB")] (b "d") (b "a.fo" ++ [nl] ++ b "b.fo B"));
     render_ok (render_files [(b "d/a.fo", b "A")] (b "d") (b "a.fo"))].
Proof. vm_compute. reflexivity. Qed.
