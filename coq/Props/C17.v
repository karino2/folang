(** C17 — tinyfo (the bootstrap transpiler) preserves behaviour on the early-Folang subset.
    Statements only; each is closed by lemmas of Core/CompileTinyProof.v / Core/CompileTiny.v (the refutation
    witness: Core/CompileExamples.v).

    [compile_tiny] (Core/CompileTiny.v, Core/Compile.v with dialect [DTiny]) transcribes tinyfo/ast.go onto the
    MiniFo / MiniGo models of C01; [tiny_subset p] are the constructs tinyfo's parser accepts: no [fun] / inner
    functions, no string match, no interpolation, no block expression, no [*] and no [/], pairs only, non-empty slice
    literals, field access only on variables.  [wt], [pap_args_pure], [run_src], [run_go], [compile_prog]: as in
    Props/C01.v.  The proof is the simulation of C01, which is generic in the dialect; [tiny_subset] itself is
    not needed by the proof (the modelled lowering is correct on all of MiniFo) but delimits what tinyfo accepts. *)
From Coq Require Import List ZArith String.
From FoVerif Require Import Core.Common Core.Lib Core.MiniFo Core.MiniGo Core.Compile Core.SimDefs
  Core.CompileExamples Core.CompileTiny Core.CompileTinyProof.
Import ListNotations.

(** Whenever the source semantics runs a program of the subset to completion with output [out], tinyfo's Go
    program, run in the MiniGo semantics, terminates with exactly [out]. *)
Theorem C17_compile_tiny_correct : forall p n out,
  tiny_subset p -> wt p -> pap_args_pure p ->
  run_src n p = ODone out -> exists m, run_go m (compile_tiny p) = ODone out.
Proof. exact compile_tiny_correct. Qed.
Print Assumptions C17_compile_tiny_correct.

(** every completed run of tinyfo's Go prints the source's output *)
Theorem C17_tiny_output_is_source_output : forall p n out,
  tiny_subset p -> wt p -> pap_args_pure p -> run_src n p = ODone out ->
  forall m out', run_go m (compile_tiny p) = ODone out' -> out' = out.
Proof. exact tiny_output_is_source_output. Qed.
Print Assumptions C17_tiny_output_is_source_output.

(** "the same output fc's translation of the same program gives" *)
Theorem C17_tiny_agrees_with_fc : forall p n o m1 m2 out out',
  tiny_subset p -> wt p -> pap_args_pure p -> run_src n p = ODone o ->
  run_go m1 (compile_tiny p) = ODone out -> run_go m2 (compile_prog p) = ODone out' -> out = out'.
Proof. exact tiny_agrees_with_fc. Qed.
Print Assumptions C17_tiny_agrees_with_fc.

Theorem C17_tiny_and_fc_both_run : forall p n o,
  tiny_subset p -> wt p -> pap_args_pure p -> run_src n p = ODone o ->
  exists m, run_go m (compile_tiny p) = ODone o /\ run_go m (compile_prog p) = ODone o.
Proof. exact tiny_and_fc_both_run. Qed.
Print Assumptions C17_tiny_and_fc_both_run.

(** the oracle's answer TINY to [C17 (subset <prog>)] is sound *)
Theorem C17_subset_check_sound : forall n p, tiny_b n p = true -> tiny_subset p.
Proof. exact tiny_b_sound. Qed.
Print Assumptions C17_subset_check_sound.

(** The known defect of C01 (finding (a)) is shared by tinyfo: the program with an effectful argument in a
    partial application is in tinyfo's subset, tinyfo's Go prints what fc's Go prints, not what the source prints. *)
Theorem C17_effectful_pap_refuted :
  exists p n m o1 o2, tiny_subset p /\ wt p /\ run_src n p = ODone o1 /\ run_go m (compile_tiny p) = ODone o2 /\ o1 <> o2.
Proof.
  exists ex_effectful_pap, 100, 200. eexists. eexists.
  split; [exact ex_effectful_pap_tiny|]. split; [exact ex_effectful_pap_wt|]. split; [exact ex_effectful_pap_src|].
  split; [rewrite ex_effectful_pap_tiny_go; exact ex_effectful_pap_go|]. vm_compute. discriminate.
Qed.
Print Assumptions C17_effectful_pap_refuted.

(** non-vacuity: a program of the subset (annotated functions incl. recursion, a partial application, pipes,
    if/elif/else, if without else, a record, a union with matches in return / let / statement position, a pair
    and destructuring, a slice with Map / Take / Iter, [=] [<>] [not] [&&] [||]) *)
Example C17_example_in_subset : tiny_subset ex_tiny /\ wt ex_tiny /\ pap_args_pure ex_tiny.
Proof. split; [exact ex_tiny_subset|split; [exact ex_tiny_wt|exact ex_tiny_pure]]. Qed.
Example C17_example_outputs :
  run_src 100 ex_tiny = run_go 200 (compile_tiny ex_tiny) /\
  run_go 200 (compile_tiny ex_tiny) = run_go 200 (compile_prog ex_tiny) /\
  exists out, run_src 100 ex_tiny = ODone out /\ String.length out = 86.
Proof. destruct ex_tiny_runs as (-> & -> & H). split; [reflexivity|split; [reflexivity|exact H]]. Qed.
