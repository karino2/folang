(** C07 — a definition's translation depends only on itself and what it references.
    Statements only, about the root-statement state machine Driver/Hist.v (definitions are abstract:
    name, kind, references, own text, temporaries consumed at parse / emission time). *)
From Coq Require Import List Arith.
From FoVerif Require Import Driver.Hist Driver.HistProofs.
Import ListNotations.

Theorem C07_frame : forall s1 s2 d, agree_on (d_refs d) s1 s2 -> emit s1 d = emit s2 d.
Proof. exact frame. Qed.
Print Assumptions C07_frame.

(** any two accepted histories (insert / delete / reorder unrelated definitions; a cut into files does
    not change the sequence, see C07_files_are_one_history) emit a common definition identically *)
Theorem C07_history_independence :
  forall h1 h2 s1 s2 es1 es2 k1 k2 d,
  run_defs [] h1 = Some (s1, es1) -> run_defs [] h2 = Some (s2, es2) ->
  consistent h1 h2 ->
  nth_error h1 k1 = Some d -> nth_error h2 k2 = Some d ->
  nth_error es1 k1 = nth_error es2 k2.
Proof. exact history_independence. Qed.
Print Assumptions C07_history_independence.

Theorem C07_files_are_one_history :
  forall fs s,
  match run_files s fs, run_defs s (concat (map f_defs fs)) with
  | Some (s1, _), Some (s2, _) => s1 = s2
  | None, None => True
  | _, _ => False
  end.
Proof. exact files_are_one_history. Qed.
Print Assumptions C07_files_are_one_history.

Theorem C07_files_written_exactly :
  forall fs s s' outs, run_files s fs = Some (s', outs) ->
  map fst outs = map f_name (filter f_is_fo fs).
Proof. exact files_written_exactly. Qed.
Print Assumptions C07_files_written_exactly.

Theorem C07_later_files_see_earlier :
  forall fs s s' outs, run_files s fs = Some (s', outs) ->
  forall pre f post, fs = pre ++ f :: post -> f_is_fo f = true ->
  exists s0 s1 es, run_defs s (concat (map f_defs pre)) = Some (s0, es) /\
                   exists es_f, run_defs s0 (f_defs f) = Some (s1, es_f) /\ In (f_name f, es_f) outs.
Proof. exact later_files_see_earlier. Qed.
Print Assumptions C07_later_files_see_earlier.

(** temporaries: two histories differ only by a shift of the emission-time numbers *)
Theorem C07_emit_temps_are_a_shift :
  forall ds c1 c2 k d, nth_error ds k = Some d ->
  exists base, nth_error (fst (number_emit c1 ds)) k = Some (d_name d, seq (S (c1 + base)) (d_etemps d)) /\
               nth_error (fst (number_emit c2 ds)) k = Some (d_name d, seq (S (c2 + base)) (d_etemps d)).
Proof. exact emit_temps_are_a_shift. Qed.
Print Assumptions C07_emit_temps_are_a_shift.

(** non-vacuity: a concrete accepted history, the same definitions reordered and cut into two files *)
Definition ex_r := mkDef 1 KType [] 10 0 0.
Definition ex_u := mkDef 2 KType [] 11 0 0.
Definition ex_f := mkDef 3 KLet [1] 12 1 0.
Definition ex_g := mkDef 4 KLet [2; 1] 13 2 1.
Example C07_example_accepts :
  (exists r, run_defs [] [ex_r; ex_u; ex_f; ex_g] = Some r) /\
  (exists r, run_files [] [mkFile 7 true [ex_u; ex_r]; mkFile 8 true [ex_g; ex_f]] = Some r) /\
  run_defs [] [ex_f; ex_r] = None.
Proof. repeat split; eexists; reflexivity. Qed.
Example C07_example_numbers :
  number_files 0 [mkFile 7 true [ex_r; ex_g; ex_f]] = [(1, []); (4, [2]); (3, [])].
Proof. reflexivity. Qed.
