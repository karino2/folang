(** C12 — slice library functions are pure: no call changes an existing slice value.
    Statements only; each is closed by [exact] of a lemma of Pkg/SliceHistory.v / SliceHeapProofs.v.

    Model (Pkg/SliceHeap.v): heap = list of arrays, slice = (array|nil, off, len, cap); every
    function of pkg/slice/slice.go transcribed with Go's append (in place when len+n <= cap, else a
    fresh array of capacity [grow oldcap needed]) and slices.SortFunc (in-place permutation
    [sorter]). A history is a list of calls whose slice arguments are indices into the pool of
    all slice values produced so far ([run]); [observe] = the contents of every pool value. *)
From Coq Require Import List ZArith Permutation.
From FoVerif Require Import Pkg.SliceHeap Pkg.SliceHeapBase Pkg.SliceHeapProofs Pkg.SliceHistory.
Import ListNotations.

(** For every growth policy of append ([needed <= grow oldcap needed]), every in-place sorting
    permutation, every history [before ++ after] (any calls, any arguments, any callbacks) and
    every slice value v that exists after [before]: v is still the same pool entry after the
    whole history and its contents are those it had after [before]. Taking [before] = the history
    up to and including the call that created v gives "contents at creation". *)
Theorem C12_history_preserves_contents :
  forall sorter, (forall key l, Permutation l (sorter key l)) ->
  forall grow, (forall c n, n <= grow c n) ->
  forall before after i v,
    nth_error (snd (run grow sorter init before)) i = Some v ->
    nth_error (snd (run grow sorter init (before ++ after))) i = Some v /\
    contents (fst (run grow sorter init (before ++ after))) v
    = contents (fst (run grow sorter init before)) v.
Proof. exact history_preserves_contents. Qed.
Print Assumptions C12_history_preserves_contents.

(** the same on the observable the harness compares (list of contents of the pool) *)
Theorem C12_history_preserves_observed_contents :
  forall sorter, (forall key l, Permutation l (sorter key l)) ->
  forall grow, (forall c n, n <= grow c n) ->
  forall before after i l,
    nth_error (observe (run grow sorter init before)) i = Some l ->
    nth_error (observe (run grow sorter init (before ++ after))) i = Some l.
Proof. exact history_preserves_contents_observe. Qed.
Print Assumptions C12_history_preserves_observed_contents.

(** per call (the invariant the history theorem is built from): on a state whose pool values are
    valid, no array that existed before the call is modified, the new pool is the old one plus
    the results, all valid *)
Theorem C12_step_modifies_no_existing_array :
  forall sorter, (forall key l, Permutation l (sorter key l)) ->
  forall grow, (forall c n, n <= grow c n) ->
  forall st c, wf st ->
    heap_extends (fst st) (fst (step grow sorter st c)) /\ wf (step grow sorter st c) /\
    observe (step grow sorter st c) = spec_step sorter (observe st) c /\
    exists new, snd (step grow sorter st c) = snd st ++ new.
Proof. exact step_spec. Qed.
Print Assumptions C12_step_modifies_no_existing_array.

(** the whole heap implementation refines the pure list semantics of the same history ... *)
Theorem C12_run_refines_lists :
  forall sorter, (forall key l, Permutation l (sorter key l)) ->
  forall grow, (forall c n, n <= grow c n) ->
  forall cs, observe (run grow sorter init cs) = spec_run sorter [] cs.
Proof. exact run_refines_lists. Qed.
Print Assumptions C12_run_refines_lists.

(** ... hence contents never depend on the growth policy (this is what lets the harness compare
    contents while the oracle runs a growth policy different from the Go runtime's) *)
Theorem C12_contents_independent_of_grow :
  forall sorter, (forall key l, Permutation l (sorter key l)) ->
  forall grow1 grow2, (forall c n, n <= grow1 c n) -> (forall c n, n <= grow2 c n) ->
  forall cs, observe (run grow1 sorter init cs) = observe (run grow2 sorter init cs).
Proof. exact contents_independent_of_grow. Qed.
Print Assumptions C12_contents_independent_of_grow.

(** the oracle's instances satisfy the hypotheses *)
Theorem C12_oracle_sorter_is_permutation : forall key l, Permutation l (isort_by key l).
Proof. exact isort_by_perm. Qed.
Theorem C12_oracle_grow_ok : forall c n, n <= grow_double c n.
Proof. exact (fun c n => Nat.le_max_l n (2 * c)). Qed.
Print Assumptions C12_oracle_sorter_is_permutation. Print Assumptions C12_oracle_grow_ok.

(** documentation: the code before the repair of PushLast ([return append(s, elem)]) violated the
    property — PopLast then PushLast overwrites the source; two PushLast on a value with spare
    capacity overwrite each other's result *)
Example C12_old_pushlast_refuted_shortened :
  let cs := [CLit [VI 1; VI 2; VI 3]; CPopLast 0; CPushLast (VI 9) 1] in
  nth 0 (observe (fold_left (step_OLD grow_double isort_by) (firstn 2 cs) init)) [] = [VI 1; VI 2; VI 3] /\
  nth 0 (observe (fold_left (step_OLD grow_double isort_by) cs init)) [] = [VI 1; VI 2; VI 9].
Proof. exact poplast_pushlast_old_refuted. Qed.
Example C12_old_pushlast_refuted_spare_capacity :
  let cs := [CMake [VI 1] 2; CPushLast (VI 2) 0; CPushLast (VI 3) 0] in
  nth 1 (observe (fold_left (step_OLD grow_double isort_by) (firstn 2 cs) init)) [] = [VI 1; VI 2] /\
  nth 1 (observe (fold_left (step_OLD grow_double isort_by) cs init)) [] = [VI 1; VI 3].
Proof. exact double_pushlast_old_refuted. Qed.

(** non-vacuity: a history with real sharing (PopLast/Tail results share the literal's array,
    then PushLast, Sort, Append, PushHead on them) — every value keeps its contents *)
Example C12_example_history :
  let cs := [CMake [VI 3; VI 1; VI 2] 2; CPopLast 0; CTail 0; CPushLast (VI 9) 1; CPushLast (VI 8) 0;
             CSort 0; CAppend 1 2; CPushHead (VI 7) 2; CTake 5 0; CZip 1 2] in
  observe (run grow_double isort_by init cs) =
  [[VI 3; VI 1; VI 2]; [VI 3; VI 1]; [VI 1; VI 2]; [VI 3; VI 1; VI 9]; [VI 3; VI 1; VI 2; VI 8];
   [VI 1; VI 2; VI 3]; [VI 3; VI 1; VI 1; VI 2]; [VI 7; VI 1; VI 2]; [VP (VI 3) (VI 1); VP (VI 1) (VI 2)]].
Proof. vm_compute. reflexivity. Qed.
