(** C06: the offside parser inverts the layout printer.
    For every decorated tree whose layout choices are valid ([wf_*]), parsing the rendered token
    stream gives back the erased tree: the layout choices are not observable. *)
From Coq Require Import List Arith Bool Lia.
From FoVerif Require Import Front.Layout Front.LayoutProofs.
Import ListNotations.

(** "From some fuel on, [f] gives [r]": all that is proved about the fuelled parser has this form. *)
Definition Ev {A} (f : nat -> res A) (r : res A) : Prop := exists n0, forall n, n0 <= n -> f n = r.

Lemma Ev_const {A} (r : res A) : Ev (fun _ => r) r.
Proof. exists 0. reflexivity. Qed.
Lemma Ev_step {A} (f g : nat -> res A) r : (forall n, g (S n) = f n) -> Ev f r -> Ev g r.
Proof. intros E (n0 & H). exists (S n0). intros [|n] L; [lia|]. rewrite E. apply H. lia. Qed.
Lemma Ev_bind {A B} (f : nat -> res A) (k : nat -> A -> res B) a r :
  Ev f (Ok a) -> Ev (fun n => k n a) r -> Ev (fun n => bind (f n) (k n)) r.
Proof.
  intros (n1 & H1) (n2 & H2). exists (Nat.max n1 n2). intros n L. rewrite H1 by lia. apply H2. lia.
Qed.

(** One judgement per parser function: on [ts] (inside the offside column [off]) it returns the tree and leaves [r].
    Each is [Ev (fun n => p_x n ..) (Ok (.., r))] written out, and unfolds to it: the lemmas above apply to them as
    they stand. *)
Definition PE off ts e r := exists n0, forall n, n0 <= n -> p_expr n off ts = Ok (e, r).
Definition PBA off cur ts e r := exists n0, forall n, n0 <= n -> p_binafter n off cur ts = Ok (e, r).
Definition PT off ts e r := exists n0, forall n, n0 <= n -> p_term n off ts = Ok (e, r).
Definition PIF off ts e r := exists n0, forall n, n0 <= n -> p_if n off ts = Ok (e, r).
Definition PAS off ts l r := exists n0, forall n, n0 <= n -> p_atoms n off ts = Ok (l, r).
Definition PA off ts a r := exists n0, forall n, n0 <= n -> p_atom n off ts = Ok (a, r).
Definition PCM off ts l r := exists n0, forall n, n0 <= n -> p_commas n off ts = Ok (l, r).
Definition PSM off ts l r := exists n0, forall n, n0 <= n -> p_semis n off ts = Ok (l, r).
Definition PFL off ts l r := exists n0, forall n, n0 <= n -> p_fields n off ts = Ok (l, r).
Definition PRL off ts x r := exists n0, forall n, n0 <= n -> p_rule n off ts = Ok (x, r).
Definition PUR off ts l r := exists n0, forall n, n0 <= n -> p_urules n off ts = Ok (l, r).
Definition PSR off ts l r := exists n0, forall n, n0 <= n -> p_srules n off ts = Ok (l, r).
Definition PS off ts s r := exists n0, forall n, n0 <= n -> p_stmt n off ts = Ok (s, r).
Definition PB off ts b r := exists n0, forall n, n0 <= n -> p_block n off ts = Ok (b, r).
Definition PSS c ts l r := exists n0, forall n, n0 <= n -> p_stmts n c ts = Ok (l, r).
Definition PIF1 off cond ts e r := Ev (fun n => p_if1 n off cond ts) (Ok (e, r)).
Definition PNL off cond te ts e r := Ev (fun n => p_if_nl n off cond te ts) (Ok (e, r)).
Definition PRS off ts l r := Ev (fun n => p_rules n off ts) (Ok (l, r)).

(* one step of a parser function: [tac] unfolds it and takes the branch the hypotheses select; a function of the
   mutual block is unfolded by its equation [E] *)
Ltac ev_step_by tac := eapply Ev_step; [intros ?; tac; reflexivity|].
Ltac ev_step E tac := ev_step_by ltac:(rewrite E; tac).
(* a call whose outcome is the judgement [H]; the last one, when only the returned value remains *)
Ltac ev_call H := eapply Ev_bind; [exact H|]; beta_iota.
Ltac ev_done := match goal with |- Ev _ ?r => exact (Ev_const r) end.
Ltac ev_last_call H := ev_call H; ev_done.
(* the same when the outcome of the call is still to be established, by [tac] *)
Ltac ev_call_by tac := eapply Ev_bind; [tac|beta_iota].

Definition head_tok (ts : list ptok) : option tok := match ts with (t, _) :: _ => Some t | [] => None end.
Definition nobin (ts : list ptok) : Prop := match ts with (t, _) :: _ => is_binop t = false | [] => True end.
Definition hd_noelse (k : list ptok) : Prop :=
  match k with (TELSE, _) :: _ => False | (TELIF, _) :: _ => False | _ => True end.
Definition nohd_else (k : list ptok) : Prop := hd_noelse k.
Definition noelse (t : tok) : Prop := t <> TELSE /\ t <> TELIF.

Definition atom_head (t : tok) : Prop :=
  match t with TA _ | TSTR _ | TUS | TLP | TLB | TDOT => True | _ => False end.
Definition expr_head (t : tok) : Prop :=
  match t with TA _ | TSTR _ | TUS | TLP | TLB | TLS | TDOT | TIF | TMATCH | TFUN => True | _ => False end.
Definition stmt_head (t : tok) : Prop := t = TLET \/ expr_head t.

(** Big-step rules of the parser: the ways through a function that the inversion takes repeatedly, or whose side
    conditions are proved where they are used. *)
Lemma PE_intro off ts e r e' r' : PT off ts e r -> PBA off e r e' r' -> PE off ts e' r'.
Proof. intros H1 H2. ev_step p_expr_S idtac. ev_call H1. exact H2. Qed.

Lemma PBA_stop off cur ts : nobin (skip_eol ts) -> PBA off cur ts cur ts.
Proof.
  intros N. ev_step p_binafter_S idtac.
  destruct (skip_eol ts) as [|[t c] r]; [ev_done|]. cbn in N. rewrite N. ev_done.
Qed.

Lemma PBA_op off cur ts t c r rhs r1 e' r' :
  skip_eol ts = (t, c) :: r -> is_binop t = true ->
  PT off r rhs r1 -> PBA off (EBin cur t rhs) r1 e' r' -> PBA off cur ts e' r'.
Proof. intros E B H1 H2. ev_step p_binafter_S ltac:(rewrite E; beta_iota; rewrite B). ev_call H1. exact H2. Qed.

Lemma PT_atoms off t c r0 l r : atom_head t -> PAS off ((t, c) :: r0) l r -> PT off ((t, c) :: r0) (EApp l) r.
Proof. (* [destruct A] leaves the six tokens that are atom heads *)
  intros A H1. destruct t; destruct A; ev_step p_term_S beta_iota; ev_last_call H1.
Qed.

Lemma PT_match off c r target c1 r2 rules r3 :
  PE off r target ((TWITH, c1) :: r2) -> PRS off (skip_eol r2) rules r3 ->
  PT off ((TMATCH, c) :: r) (EMatch target rules) r3.
Proof. intros H1 H2. ev_step p_term_S beta_iota. ev_call H1. ev_last_call H2. Qed.

Lemma PT_fun off c r ps c1 r2 b r3 :
  span_until is_arrow r = (ps, (TARROW, c1) :: r2) -> PB off (skip_eol r2) b r3 ->
  PT off ((TFUN, c) :: r) (EFun ps b) r3.
Proof. intros E H1. ev_step p_term_S ltac:(beta_iota; rewrite E; beta_iota). ev_last_call H1. Qed.

Lemma PIF_to1 off ts cond c1 t2 c2 r2 e r' :
  PE off ts cond ((TTHEN, c1) :: (t2, c2) :: r2) -> t2 <> TEOL -> PIF1 off cond ((t2, c2) :: r2) e r' -> PIF off ts e r'.
Proof. intros H1 N H2. ev_step p_if_S idtac. ev_call H1. destruct t2; try exact H2; congruence. Qed.

Lemma PIF1_nl off cond r2 te r3 e r' :
  PE off r2 te r3 -> nohd_else r3 -> PNL off cond te r3 e r' -> PIF1 off cond r2 e r'.
Proof.
  intros H1 N H2. ev_step p_if1_S idtac. ev_call H1.
  destruct r3 as [|[t c] r]; [exact H2|]. destruct t; try exact H2; contradiction.
Qed.

Lemma PNL_else off cond te r3 ec r4 eb r5 :
  head_is_eol r3 = true -> skip_eol r3 = (TELSE, ec) :: r4 -> off <= ec -> PB off (skip_eol r4) eb r5 ->
  PNL off cond te r3 (EIf cond (Blk [SExpr te]) (Some eb)) r5.
Proof.
  intros Hd E L H1. apply Nat.leb_le in L.
  ev_step p_if_nl_S ltac:(rewrite Hd, E; cbn [col_inside]; rewrite L; beta_iota). ev_last_call H1.
Qed.

Lemma PNL_elif off cond te r3 ec r4 e r5 :
  head_is_eol r3 = true -> skip_eol r3 = (TELIF, ec) :: r4 -> off <= ec -> PIF off r4 e r5 ->
  PNL off cond te r3 (EIf cond (Blk [SExpr te]) (Some (Blk [SExpr e]))) r5.
Proof.
  intros Hd E L H1. apply Nat.leb_le in L.
  ev_step p_if_nl_S ltac:(rewrite Hd, E; cbn [col_inside]; rewrite L; beta_iota). ev_last_call H1.
Qed.

Lemma PNL_none off cond te r3 :
  (head_is_eol r3 && col_inside off (skip_eol r3) = true -> nohd_else (skip_eol r3)) ->
  PNL off cond te r3 (EIf cond (Blk [SExpr te]) None) r3.
Proof.
  intros N. ev_step p_if_nl_S idtac.
  destruct (head_is_eol r3 && col_inside off (skip_eol r3)); [|ev_done]. specialize (N eq_refl).
  destruct (skip_eol r3) as [|[t c] r]; [ev_done|]. destruct t; try ev_done; contradiction.
Qed.

Lemma PAS_one off ts a r : PA off ts a r -> end_of_term r = true -> PAS off ts [a] r.
Proof. intros H1 E. ev_step p_atoms_S idtac. ev_call H1. rewrite E. ev_done. Qed.

Lemma PAS_cons off ts a r l r' :
  PA off ts a r -> end_of_term r = false -> PAS off r l r' -> PAS off ts (a :: l) r'.
Proof. intros H1 E H2. ev_step p_atoms_S idtac. ev_call H1. rewrite E. beta_iota. ev_last_call H2. Qed.

Lemma PA_ta off a c r : PA off ((TA a, c) :: r) (AT (TA a)) r.
Proof. ev_step p_atom_S beta_iota. ev_done. Qed.

Lemma PCM_nil off ts : match ts with (TCOMMA, _) :: _ => False | _ => True end -> PCM off ts [] ts.
Proof.
  intros N. ev_step p_commas_S idtac.
  destruct ts as [|[t c] r]; [ev_done|]. destruct t; try ev_done; contradiction.
Qed.

Lemma p_atom_par t1 : t1 <> TRP -> forall n off c c1 r,
  p_atom (S n) off ((TLP, c) :: (t1, c1) :: r) =
  let* (e, r1) := p_expr n off ((t1, c1) :: r) in
  let* (es, r2) := p_commas n off r1 in
  match r2 with (TRP, _) :: r3 => Ok (APar (e :: es), r3) | _ => Reject end.
Proof. intros N n off c c1 r. rewrite p_atom_S. destruct t1; try congruence; reflexivity. Qed.

Lemma PA_tuple off c t1 c1 r e r1 es c2 r3 :
  t1 <> TRP -> PE off ((t1, c1) :: r) e r1 -> PCM off r1 es ((TRP, c2) :: r3) ->
  PA off ((TLP, c) :: (t1, c1) :: r) (APar (e :: es)) r3.
Proof. intros N H1 H2. ev_step (p_atom_par t1 N) idtac. ev_call H1. ev_last_call H2. Qed.
Lemma PA_rec off c r fs c2 r2 : PFL off r fs ((TRB, c2) :: r2) -> PA off ((TLB, c) :: r) (ARec fs) r2.
Proof. intros H1. ev_step p_atom_S beta_iota. ev_last_call H1. Qed.

Lemma PFL_last off x c r nm c1 r2 e c2 r4 :
  field_name x r = (nm, (TEQ, c1) :: r2) -> PE off (skip_eol r2) e ((TRB, c2) :: r4) ->
  PFL off ((TA x, c) :: r) [(nm, e)] ((TRB, c2) :: r4).
Proof. intros E H1. ev_step p_fields_S ltac:(beta_iota; rewrite E; beta_iota). ev_last_call H1. Qed.
Lemma PFL_cons off x c r nm c1 r2 e c2 r4 fs r5 :
  field_name x r = (nm, (TEQ, c1) :: r2) -> PE off (skip_eol r2) e ((TSEMI, c2) :: r4) -> PFL off r4 fs r5 ->
  PFL off ((TA x, c) :: r) ((nm, e) :: fs) r5.
Proof. intros E H1 H2. ev_step p_fields_S ltac:(beta_iota; rewrite E; beta_iota). ev_call H1. ev_last_call H2. Qed.

Lemma PRL_intro off c r pat c1 r2 b r3 :
  span_until is_arrow r = (pat, (TARROW, c1) :: r2) -> PB off (skip_eol r2) b r3 ->
  PRL off ((TBAR, c) :: r) (Rule pat b) r3.
Proof. intros E H1. ev_step p_rule_S ltac:(beta_iota; rewrite E; beta_iota). ev_last_call H1. Qed.

Lemma PUR_last off ts r1 rest : PRL off ts r1 rest -> bar_inside off rest = false -> PUR off ts [r1] rest.
Proof. intros H1 B. ev_step p_urules_S idtac. ev_call H1. rewrite B. ev_done. Qed.

Lemma PUR_more off ts r1 rest rs rest' :
  PRL off ts r1 rest -> bar_inside off rest = true -> is_default_mr rest = false ->
  PUR off (skip_eol rest) rs rest' -> PUR off ts (r1 :: rs) rest'.
Proof. intros H1 B D H2. ev_step p_urules_S idtac. ev_call H1. rewrite B, D. cbn [andb negb]. ev_last_call H2. Qed.

Lemma PUR_def off ts r1 rest d rest' :
  PRL off ts r1 rest -> bar_inside off rest = true -> is_default_mr rest = true ->
  PRL off rest d rest' -> PUR off ts [r1; d] rest'.
Proof. intros H1 B D H2. ev_step p_urules_S idtac. ev_call H1. rewrite B, D. cbn [andb negb]. ev_last_call H2. Qed.

Lemma PSR_more off ts r1 rest rs rest' :
  PRL off ts r1 rest -> is_slit_rule rest = true -> PSR off rest rs rest' -> PSR off ts (r1 :: rs) rest'.
Proof. intros H1 S H2. ev_step p_srules_S idtac. ev_call H1. rewrite S. beta_iota. ev_last_call H2. Qed.

Lemma PSR_last off ts r1 rest d rest' :
  PRL off ts r1 rest -> is_slit_rule rest = false -> is_default_mr rest && negb (bar_inside off rest) = false ->
  PRL off rest d rest' -> PSR off ts [r1; d] rest'.
Proof. intros H1 S D H2. ev_step p_srules_S idtac. ev_call H1. rewrite S, D. beta_iota. ev_last_call H2. Qed.

Lemma PS_letv off c r hdr c1 r2 e r3 :
  span_until is_eq r = (hdr, (TEQ, c1) :: r2) -> is_var_hdr hdr = true -> PE off (skip_eol r2) e r3 ->
  PS off ((TLET, c) :: r) (SLet hdr e) r3.
Proof. intros E V H1. ev_step p_stmt_S ltac:(beta_iota; rewrite E; beta_iota; rewrite V). ev_last_call H1. Qed.
Lemma skip_eol_idem k : skip_eol (skip_eol k) = skip_eol k.
Proof. induction k as [|[t c] r IH]; [reflexivity|]. destruct t; cbn; auto. Qed.

Lemma skip_eol_nonEOL t c r : t <> TEOL -> skip_eol ((t, c) :: r) = (t, c) :: r.
Proof. destruct t; cbn; auto; congruence. Qed.

Lemma skip_eol_head_nonEOL k t c r : skip_eol k = (t, c) :: r -> t <> TEOL.
Proof.
  induction k as [|[t0 c0] r0 IH]; [discriminate|]. destruct t0; cbn; try (intros E; inversion E; subst; discriminate).
  exact IH.
Qed.

Ltac app_to_right := repeat (cbn [app]; rewrite <- ?app_assoc); cbn [app].

Section Inv.
Variable inner : nat.

Notation eols := (eols inner).
Notation nl := (nl inner).
Notation atoks := (atoks inner).

Lemma skip_eols b k : skip_eol (eols b ++ k) = skip_eol k.
Proof. unfold Layout.eols. induction b; cbn; auto. Qed.
Lemma skip_nl b k : skip_eol (nl b ++ k) = skip_eol k.
Proof. unfold Layout.nl. cbn [app skip_eol]. apply skip_eols. Qed.
Lemma end_of_term_nl b k : end_of_term (nl b ++ k) = true.
Proof. reflexivity. Qed.

(* [cbn] cannot fold the calls of the rendering functions back: they are one mutual fixpoint under the parameter
   [inner] of their section. So each case that is used below is stated (all hold by computation). The erasure and
   the validity predicates have no such parameter and are unfolded by [cbn [f]] where needed (three equations about
   them close this block, as facts of their own). *)
Lemma r_atom_LLam c ps b cl : r_atom inner c (LLam ps b cl) =
  (TLP, c) :: (TFUN, inner) :: atoks ps ++ (TARROW, inner) :: r_body inner b ++ r_close inner cl.
Proof. reflexivity. Qed.
Lemma r_atom_LGroup c k f e more cl : r_atom inner c (LGroup k f e more cl) =
  (g_open k, c) :: r_fld inner inner f ++ r_expr inner (fld_col inner inner f) e ++ r_seq inner k more ++ r_gclose inner k cl.
Proof. reflexivity. Qed.
Lemma r_seq_QCons k sb f c e more : r_seq inner k (QCons sb f c e more) =
  r_sep inner k sb ++ r_fld inner c f ++ r_expr inner (fld_col inner c f) e ++ r_seq inner k more.
Proof. reflexivity. Qed.
Lemma r_atoms_ACons c a l : r_atoms inner (ACons c a l) = r_atom inner c a ++ r_atoms inner l.
Proof. reflexivity. Qed.
Lemma r_term_LApp c a l : r_term inner c (LApp a l) = r_atom inner c a ++ r_atoms inner l.
Proof. reflexivity. Qed.
Lemma r_term_LIf c cd tl : r_term inner c (LIf cd tl) =
  (TIF, c) :: r_sx inner inner cd ++ (TTHEN, inner) :: r_tail inner tl.
Proof. reflexivity. Qed.
Lemma r_term_LMatch c tg b0 arms : r_term inner c (LMatch tg b0 arms) =
  (TMATCH, c) :: r_sx inner inner tg ++ (TWITH, inner) :: nl b0 ++ r_arms inner arms.
Proof. reflexivity. Qed.
Lemma r_term_LSMatch c tg b0 arms : r_term inner c (LSMatch tg b0 arms) =
  (TMATCH, c) :: r_sx inner inner tg ++ (TWITH, inner) :: nl b0 ++ r_sarms inner arms.
Proof. reflexivity. Qed.
Lemma r_tail_TMulti b1 t r : r_tail inner (TMulti b1 t r) = nl b1 ++ r_block inner t ++ r_ifrest inner r.
Proof. reflexivity. Qed.
Lemma r_tail_TOne t r : r_tail inner (TOne t r) = r_sx inner inner t ++ r_1rest inner r.
Proof. reflexivity. Qed.
Lemma r_ifrest_IEnd : r_ifrest inner IEnd = [].
Proof. reflexivity. Qed.
Lemma r_ifrest_IElse bl ec b : r_ifrest inner (IElse bl ec b) = nl bl ++ (TELSE, ec) :: r_body inner b.
Proof. reflexivity. Qed.
Lemma r_ifrest_IElif bl ec cd tl : r_ifrest inner (IElif bl ec cd tl) =
  nl bl ++ (TELIF, ec) :: r_sx inner inner cd ++ (TTHEN, inner) :: r_tail inner tl.
Proof. reflexivity. Qed.
Lemma r_1rest_R1End : r_1rest inner R1End = [].
Proof. reflexivity. Qed.
Lemma r_1rest_R1Else e : r_1rest inner (R1Else e) = (TELSE, inner) :: r_sx inner inner e.
Proof. reflexivity. Qed.
Lemma r_1rest_R1Elif cd tl : r_1rest inner (R1Elif cd tl) =
  (TELIF, inner) :: r_sx inner inner cd ++ (TTHEN, inner) :: r_tail inner tl.
Proof. reflexivity. Qed.
Lemma r_1rest_R1NlElse bl ec b : r_1rest inner (R1NlElse bl ec b) = nl bl ++ (TELSE, ec) :: r_body inner b.
Proof. reflexivity. Qed.
Lemma r_1rest_R1NlElif bl ec cd tl : r_1rest inner (R1NlElif bl ec cd tl) =
  nl bl ++ (TELIF, ec) :: r_sx inner inner cd ++ (TTHEN, inner) :: r_tail inner tl.
Proof. reflexivity. Qed.
Lemma r_body_BInline b : r_body inner (BInline b) = r_block inner b.
Proof. reflexivity. Qed.
Lemma r_body_BNext bl b : r_body inner (BNext bl b) = nl bl ++ r_block inner b.
Proof. reflexivity. Qed.
Lemma r_expr_LT c t : r_expr inner c (LT t) = r_term inner c t.
Proof. reflexivity. Qed.
Lemma r_expr_LOp c a l brk o e : r_expr inner c (LOp a l brk o e) =
  r_atom inner c a ++ r_atoms inner l ++ r_brk inner brk o ++ r_expr inner inner e.
Proof. reflexivity. Qed.
Lemma r_stmt_LLet_next c x bl c' e : r_stmt inner c (LLet x (Some (bl, c')) e) =
  (TLET, c) :: (TA x, inner) :: (TEQ, inner) :: nl bl ++ r_expr inner c' e.
Proof. reflexivity. Qed.
Lemma r_stmt_LLet_same c x e : r_stmt inner c (LLet x None e) =
  (TLET, c) :: (TA x, inner) :: (TEQ, inner) :: r_expr inner inner e.
Proof. reflexivity. Qed.
Lemma r_stmt_LLetD_next c x y zs bl c' e : r_stmt inner c (LLetD x y zs (Some (bl, c')) e) =
  (TLET, c) :: (TLP, inner) :: (TA x, inner) :: (TCOMMA, inner) :: (TA y, inner) :: r_dnames inner zs ++
  (TRP, inner) :: (TEQ, inner) :: nl bl ++ r_expr inner c' e.
Proof. reflexivity. Qed.
Lemma r_stmt_LLetD_same c x y zs e : r_stmt inner c (LLetD x y zs None e) =
  (TLET, c) :: (TLP, inner) :: (TA x, inner) :: (TCOMMA, inner) :: (TA y, inner) :: r_dnames inner zs ++
  (TRP, inner) :: (TEQ, inner) :: r_expr inner inner e.
Proof. reflexivity. Qed.
Lemma r_stmt_LLetFn c f p ps b : r_stmt inner c (LLetFn f p ps b) =
  (TLET, c) :: (TA f, inner) :: (TA p, inner) :: atoks ps ++ (TEQ, inner) :: r_body inner b.
Proof. reflexivity. Qed.
Lemma r_stmt_LExpr c e : r_stmt inner c (LExpr e) = r_expr inner c e.
Proof. reflexivity. Qed.
Lemma r_block_LB c s r : r_block inner (LB c s r) = r_stmt inner c s ++ r_rest inner r.
Proof. reflexivity. Qed.
Lemma r_rest_LCons bl c s r : r_rest inner (LCons bl c s r) = nl bl ++ r_stmt inner c s ++ r_rest inner r.
Proof. reflexivity. Qed.
Lemma r_arms_MLast bc p b : r_arms inner (MLast bc p b) = (TBAR, bc) :: r_pat inner p ++ (TARROW, inner) :: r_body inner b.
Proof. reflexivity. Qed.
Lemma r_arms_MCons bc p b bl r : r_arms inner (MCons bc p b bl r) =
  (TBAR, bc) :: r_pat inner p ++ (TARROW, inner) :: r_body inner b ++ nl bl ++ r_arms inner r.
Proof. reflexivity. Qed.
Lemma r_sarms_SLast_def bc b : r_sarms inner (SLast bc None b) =
  (TBAR, bc) :: (TUS, inner) :: (TARROW, inner) :: r_body inner b.
Proof. reflexivity. Qed.
Lemma r_sarms_SLast_var bc v b : r_sarms inner (SLast bc (Some v) b) =
  (TBAR, bc) :: (TA v, inner) :: (TARROW, inner) :: r_body inner b.
Proof. reflexivity. Qed.
Lemma r_sarms_SCons bc lit b bl r : r_sarms inner (SCons bc lit b bl r) =
  (TBAR, bc) :: (TSTR lit, inner) :: (TARROW, inner) :: r_body inner b ++ nl bl ++ r_sarms inner r.
Proof. reflexivity. Qed.
Lemma er_sarms_SLast_var bc v b : er_sarms (SLast bc (Some v) b) = [Rule [TA v] (er_body b)].
Proof. reflexivity. Qed.
Lemma er_sarms_SLast_def bc b : er_sarms (SLast bc None b) = [Rule [TUS] (er_body b)].
Proof. reflexivity. Qed.
Lemma wf_rest_LNil c prev : wf_rest c prev LNil = is_lexpr prev.
Proof. reflexivity. Qed.

Lemma atom_head_facts t : atom_head t ->
  expr_head t /\ t <> TEOL /\ t <> TRP /\ t <> TBAR /\ t <> TLET /\ is_binop t = false.
Proof. destruct t; cbn; intros H; try contradiction; repeat split; auto; discriminate. Qed.
Lemma stmt_head_facts t : stmt_head t -> t <> TEOL /\ t <> TRP /\ t <> TBAR /\ is_binop t = false /\ noelse t.
Proof.
  intros [->|H]; [repeat split; discriminate|].
  destruct t; cbn in H; try contradiction; repeat split; (reflexivity || discriminate).
Qed.

Lemma r_atom_head c a k : exists t (r : list ptok), r_atom inner c a ++ k = (t, c) :: r /\
  (if is_slice a then t = TLS else atom_head t).
Proof.
  destruct a as [x|x|ps b cl| |g f e more cl]; try (cbn; eexists; eexists; split; [reflexivity|exact I]).
  rewrite r_atom_LGroup. cbn [app]. eexists; eexists; split; [reflexivity|]. destruct g; cbn; auto.
Qed.
Lemma r_atom_head_e c a k : exists t (r : list ptok), r_atom inner c a ++ k = (t, c) :: r /\
  expr_head t /\ end_of_term ((t, c) :: r) = false.
Proof.
  destruct (r_atom_head c a k) as (t & r & E & H). exists t, r. split; [exact E|].
  destruct (is_slice a); [subst t; split; [exact I|reflexivity]|].
  destruct t; cbn in H; try contradiction; split; try exact I; reflexivity.
Qed.

Lemma r_term_head c t k : exists t0 (r : list ptok), r_term inner c t ++ k = (t0, c) :: r /\ expr_head t0.
Proof.
  destruct t as [a l|cd tl|tg b0 arms|tg b0 arms]; [|rewrite r_term_LIf|rewrite r_term_LMatch|rewrite r_term_LSMatch];
    try (cbn [app]; eexists; eexists; split; [reflexivity|exact I]).
  rewrite r_term_LApp, <- app_assoc. destruct (r_atom_head_e c a (r_atoms inner l ++ k)) as (t0 & r & E & H & _).
  exists t0, r. split; [exact E|exact H].
Qed.

Lemma r_expr_head c e k : exists t0 (r : list ptok), r_expr inner c e ++ k = (t0, c) :: r /\ expr_head t0.
Proof.
  destruct e as [t|a l brk o e'].
  - rewrite r_expr_LT. apply r_term_head.
  - rewrite r_expr_LOp, <- app_assoc.
    destruct (r_atom_head_e c a ((r_atoms inner l ++ r_brk inner brk o ++ r_expr inner inner e') ++ k)) as (t0 & r & E & H & _).
    exists t0, r. split; [exact E|exact H].
Qed.

Lemma r_stmt_head c s k : exists t0 (r : list ptok), r_stmt inner c s ++ k = (t0, c) :: r /\ stmt_head t0.
Proof.
  destruct s as [x [[bl c']|] e|x y zs [[bl c']|] e|f p ps b|e];
    [rewrite r_stmt_LLet_next|rewrite r_stmt_LLet_same|rewrite r_stmt_LLetD_next|rewrite r_stmt_LLetD_same
    |rewrite r_stmt_LLetFn|]; try (cbn [app]; eexists; eexists; split; [reflexivity|left; reflexivity]).
  rewrite r_stmt_LExpr. destruct (r_expr_head c e k) as (t0 & r & E & H). exists t0, r. split; [exact E|right; exact H].
Qed.

Lemma skip_stmt c s k : skip_eol (r_stmt inner c s ++ k) = r_stmt inner c s ++ k.
Proof.
  destruct (r_stmt_head c s k) as (t0 & r & E & H). rewrite E. apply skip_eol_nonEOL.
  apply (stmt_head_facts t0 H).
Qed.
Lemma skip_expr c e k : skip_eol (r_expr inner c e ++ k) = r_expr inner c e ++ k.
Proof. exact (skip_stmt c (LExpr e) k). Qed.
Lemma skip_block b k : skip_eol (r_block inner b ++ k) = r_block inner b ++ k.
Proof. destruct b as [c s r]. rewrite r_block_LB, <- app_assoc. apply skip_stmt. Qed.

(* the second hypothesis is the test on which span_until stops: [t] ends the span or is a line end *)
Lemma span_atoks stop l t c (r : list ptok) :
  (forall a, stop (TA a) = false) -> stop t || match t with TEOL => true | _ => false end = true ->
  span_until stop (atoks l ++ @cons ptok (t, c) r) = (map TA l, @cons ptok (t, c) r).
Proof.
  intros Hs Ht. induction l as [|a l IH]; cbn [Layout.atoks map app span_until].
  - rewrite Ht. reflexivity.
  - rewrite Hs. cbn [orb]. unfold Layout.atoks in IH. rewrite IH. reflexivity.
Qed.

Lemma PAS_atoks off a l k : end_of_term k = true ->
  PAS off ((TA a, inner) :: atoks l ++ k) (AT (TA a) :: map (fun x => AT (TA x)) l) k.
Proof.
  intros E. revert a. induction l as [|b l IH]; intros a; cbn [Layout.atoks map app].
  - apply PAS_one; [apply PA_ta|exact E].
  - eapply PAS_cons; [apply PA_ta|reflexivity|]. apply IH.
Qed.

Lemma PT_sxt off t k : end_of_term k = true -> PT off (r_sxt inner inner t ++ k) (er_sxt t) k.
Proof. intros E. destruct t as [a l]. unfold r_sxt, er_sxt. cbn [fst snd app]. apply PT_atoms; [exact I|]. apply PAS_atoks; exact E. Qed.

Lemma PBA_sxrest off l : forall cur k, end_of_term k = true -> nobin (skip_eol k) ->
  PBA off cur (r_sxrest inner l ++ k) (er_sxrest cur l) k.
Proof.
  induction l as [|[o t] l IH]; intros cur k E N; cbn [r_sxrest er_sxrest app].
  - apply PBA_stop. exact N.
  - eapply PBA_op; [reflexivity|reflexivity| |].
    + rewrite <- app_assoc. apply PT_sxt. destruct l as [|[o' t'] l']; [exact E|reflexivity].
    + apply IH; assumption.
Qed.

Lemma PE_sx off s k : end_of_term k = true -> nobin (skip_eol k) ->
  PE off (r_sx inner inner s ++ k) (er_sx s) k.
Proof.
  intros E N. destruct s as [t l]. unfold r_sx, er_sx. cbn [fst snd]. rewrite <- app_assoc.
  eapply PE_intro.
  - apply PT_sxt. destruct l as [|[o' t'] l']; [exact E|reflexivity].
  - apply PBA_sxrest; assumption.
Qed.

Lemma r_sx_head s k : exists a r, r_sx inner inner s ++ k = (TA a, inner) :: r.
Proof. destruct s as [[a l] rest]. unfold r_sx, r_sxt. cbn. eexists; eexists; reflexivity. Qed.

(** tokens that a construct of the current block may still take when they stand inside its offside line *)
Definition takes (t : tok) : Prop := t = TBAR \/ t = TELSE \/ t = TELIF.

(** what may follow a block of column c: the line ends (or ')' / end of input), and the next token is no
    operator, is ')' or strictly left of c, and is not else/elif when the block ends in an if without else *)
Definition bfol (c : nat) (io : bool) (k : list ptok) : Prop :=
  end_of_term k = true /\ nohd_else k /\
  match skip_eol k with [] => True | (t, c') :: _ =>
    is_binop t = false /\ (t = TRP \/ c' < c) /\ (io = true -> noelse t) end.

(** what may follow an expression / statement inside a block of column off: additionally the next token
    is left of every block the construct leaves open (bd), and a '|' / else / elif is left of off when the
    construct ends with the arms of a union match or a one-line if without else (tm) *)
Definition efol (off : nat) (bd : option nat) (tm io : bool) (k : list ptok) : Prop :=
  end_of_term k = true /\ nohd_else k /\
  match skip_eol k with [] => True | (t, c') :: _ =>
    is_binop t = false /\ (forall b, bd = Some b -> t = TRP \/ c' < b) /\ (tm = true -> takes t -> c' < off) /\
    (io = true -> noelse t) end.

(** what a construct leaves of the continuation [k]: all of it when it ends with an atom on its line ([bd = None]);
    when it ends with a block, the statement loop of that block has already skipped the line ends *)
Definition aft (bd : option nat) (k : list ptok) : list ptok :=
  match bd with None => k | Some _ => skip_eol k end.

(** the contract of a term; an application asks less than [efol off None false false k]: p_atoms stops on
    [end_of_term] alone and looks at nothing behind it *)
Definition tfol (off : nat) (t : lterm) (k : list ptok) : Prop :=
  match t with LApp _ _ => end_of_term k = true | _ => efol off (term_bd t) (term_tm t) (term_io t) k end.

Lemma skip_aft bd k : skip_eol (aft bd k) = skip_eol k.
Proof. destruct bd; cbn [aft]; [apply skip_eol_idem|reflexivity]. Qed.

Lemma efol_nobin off bd tm io k : efol off bd tm io k -> nobin (skip_eol k).
Proof. intros (_ & _ & H). destruct (skip_eol k) as [|[t c] r]; [exact I|]. apply H. Qed.

Lemma efol_bfol off b tm io k : efol off (Some b) tm io k -> bfol b io k.
Proof.
  intros (E & NE & H). split; [exact E|]. split; [exact NE|]. destruct (skip_eol k) as [|[t c] r]; [exact I|].
  destruct H as (N & B & _ & IO). split; [exact N|]. split; [apply B; reflexivity|exact IO].
Qed.

Lemma efol_tfol off t k : efol off (term_bd t) (term_tm t) (term_io t) k -> tfol off t k.
Proof. intros H. destruct t; cbn [tfol]; try exact H. apply H. Qed.

Lemma nohd_else_nl b k : nohd_else (nl b ++ k).
Proof. exact I. Qed.

(* a block's column bounds what its statements leave open *)
Lemma wf_body_col off b : wf_body off b -> off < body_col b.
Proof. destruct b as [[c s r]|bl [c s r]]; cbn; intros (H & _); exact H. Qed.
Lemma wf_block_col off b : wf_block off b -> off < bcol b.
Proof. destruct b as [c s r]. cbn. intros (H & _); exact H. Qed.
Scheme liftail_s := Induction for liftail Sort Prop
  with lifrest_s := Induction for lifrest Sort Prop
  with l1rest_s := Induction for l1rest Sort Prop.
Combined Scheme if_mutind from liftail_s, lifrest_s, l1rest_s.

Lemma wf_if_bd off :
  (forall tl, wf_tail off tl -> forall b, tail_bd tl = Some b -> off < b) /\
  (forall r, forall prev, off < bcol prev -> wf_ifrest off prev r -> forall b, ifrest_bd (bcol prev) r = Some b -> off < b) /\
  (forall r, wf_1rest off r -> forall b, r1_bd r = Some b -> off < b).
Proof.
  apply if_mutind.
  - intros b1 t r IH W b E. cbn [wf_tail] in W. destruct W as (Wt & Wr).
    cbn [tail_bd] in E. eapply IH; [apply wf_block_col; exact Wt|exact Wr|exact E].
  - intros t r IH W b E. cbn [wf_tail] in W. cbn [tail_bd] in E. eapply IH; eassumption.
  - intros prev L _ b E. cbn [ifrest_bd] in E. inversion E; subst. exact L.
  - intros bl ec b0 prev L W b E. cbn [wf_ifrest] in W. destruct W as (_ & _ & Wb).
    cbn [ifrest_bd] in E. inversion E; subst. apply wf_body_col; exact Wb.
  - intros bl ec c tl IH prev L W b E. cbn [wf_ifrest] in W. destruct W as (_ & _ & Wt).
    cbn [ifrest_bd] in E. eapply IH; eassumption.
  - intros _ b E. discriminate.
  - intros e _ b E. discriminate.
  - intros c tl IH W b E. cbn [wf_1rest] in W. cbn [r1_bd] in E. eapply IH; eassumption.
  - intros bl ec b0 W b E. cbn [wf_1rest] in W. destruct W as (_ & Wb).
    cbn [r1_bd] in E. inversion E; subst. apply wf_body_col; exact Wb.
  - intros bl ec c tl IH W b E. cbn [wf_1rest] in W. destruct W as (_ & Wt).
    cbn [r1_bd] in E. eapply IH; eassumption.
Qed.
Lemma wf_arms_bd off prev a : wf_arms off prev a -> off < arms_bd a.
Proof.
  revert prev. induction a as [bc p b|bc p b bl r IH]; intros prev; cbn [wf_arms arms_bd].
  - intros (_ & _ & H). apply wf_body_col; exact H.
  - intros (_ & _ & _ & _ & H). eapply IH; exact H.
Qed.
Lemma wf_sarms_bd off prev a : wf_sarms off prev a -> off < sarms_bd a.
Proof.
  revert prev. induction a as [bc fin b|bc lit b bl r IH]; intros prev; cbn [wf_sarms sarms_bd].
  - intros (_ & _ & H). apply wf_body_col; exact H.
  - intros (_ & _ & H). eapply IH; exact H.
Qed.
Lemma wf_term_bd off t b : wf_term off t -> term_bd t = Some b -> off < b.
Proof.
  destruct t as [a l|cd tl|tg b0 arms|tg b0 arms]; cbn [wf_term term_bd]; try discriminate.
  - intros W E. eapply (proj1 (wf_if_bd off)); eassumption.
  - intros (_ & H) E. inversion E; subst. eapply wf_arms_bd; exact H.
  - intros (_ & H) E. inversion E; subst. eapply wf_sarms_bd; exact H.
Qed.
Lemma wf_expr_bd off e b : wf_expr off e -> expr_bd e = Some b -> off < b.
Proof.
  induction e as [t|a l brk o e IH]; cbn [wf_expr expr_bd].
  - apply wf_term_bd.
  - intros (_ & _ & _ & H). apply IH; exact H.
Qed.
Lemma wf_stmt_bd off s b : wf_stmt off s -> stmt_bd s = Some b -> off < b.
Proof.
  destruct s as [x nl e|x y zs nl e|f p ps bd|e]; cbn [wf_stmt stmt_bd].
  - apply wf_expr_bd.
  - apply wf_expr_bd.
  - intros H E. inversion E; subst. apply wf_body_col; exact H.
  - apply wf_expr_bd.
Qed.

(* the contract of the last statement of a block follows from the block's *)
Lemma bfol_efol cb s k : wf_stmt cb s -> bfol cb (stmt_io s) k -> efol cb (stmt_bd s) (stmt_tm s) (stmt_io s) k.
Proof.
  intros W (E & NE & H). split; [exact E|]. split; [exact NE|]. destruct (skip_eol k) as [|[t c'] r]; [exact I|].
  destruct H as (N & C & IO). split; [exact N|]. split; [|split; [|exact IO]].
  - intros b Hb. destruct C as [C|C]; [left; exact C|right]. pose proof (wf_stmt_bd cb s b W Hb). lia.
  - intros _ Ht. destruct C as [C|C]; [|exact C]. subst t. destruct Ht as [Ht|[Ht|Ht]]; discriminate.
Qed.

Lemma wf_rest_last c s r : wf_rest c s r -> last_is_expr (er_stmt s :: er_rest r) = true.
Proof.
  revert s. induction r as [|bl c' s' r IH]; intros s; cbn [wf_rest er_rest].
  - destruct s; cbn; intros H; try contradiction; reflexivity.
  - intros (_ & _ & _ & H). specialize (IH s' H). unfold last_is_expr in *. cbn [last] in *.
    destruct (er_rest r); exact IH.
Qed.

Definition Pa (a : latom) := forall off c k, wf_atom off a -> PA off (r_atom inner c a ++ k) (er_atom a) k.
(* the elements after the first one, up to and including the closing token. p_commas / p_semis are entered on the
   separator, so tuples and slices get a judgement on the whole rest; p_fields eats its own ';' in the middle of the
   previous field, so for records the rest is described from behind the ';' (or is just the closing brace) *)
Definition Pq (q : lseq) := forall off k bd cl kk, wf_seq off k bd q cl ->
  exists c2,
    match k with
    | GPar => PCM off (aft bd (r_seq inner k q ++ r_gclose inner k cl ++ kk)) (er_seq q) ((TRP, c2) :: kk)
    | GSlice => PSM off (aft bd (r_seq inner k q ++ r_gclose inner k cl ++ kk)) (er_seq q) ((TRS, c2) :: kk)
    | GRec =>
        match q with
        | QNil => aft bd (r_gclose inner k cl ++ kk) = (TRB, c2) :: kk
        | QCons sb f c e more =>
            exists c1, aft bd (r_seq inner k q ++ r_gclose inner k cl ++ kk) =
                       (TSEMI, c1) :: r_fld inner c f ++ r_expr inner (fld_col inner c f) e ++ r_seq inner k more ++ r_gclose inner k cl ++ kk /\
            PFL off (r_fld inner c f ++ r_expr inner (fld_col inner c f) e ++ r_seq inner k more ++ r_gclose inner k cl ++ kk)
                (er_fseq q) ((TRB, c2) :: kk)
        end
    end.
(* p_atoms parses an atom and the atoms after it in one call (and p_stmts a statement and the rest of the block), so
   the claim about a tail is made for the list with its previous element [a] in front, given [a]'s own claim *)
Definition Pas (l : latoms) := forall off a c k, Pa a -> wf_atom off a -> wf_atoms off l -> end_of_term k = true ->
  PAS off (r_atom inner c a ++ r_atoms inner l ++ k) (er_atom a :: er_atoms l) k.
Definition Pt (t : lterm) := forall off c k, wf_term off t -> tfol off t k ->
  PT off (r_term inner c t ++ k) (er_term t) (aft (term_bd t) k).
Definition Ptail (tl : liftail) := forall off ts cond c1 k,
  wf_tail off tl -> efol off (tail_bd tl) (tail_tm tl) (tail_io tl) k ->
  PE off ts cond ((TTHEN, c1) :: r_tail inner tl ++ k) ->
  PIF off ts (er_tail cond tl) (aft (tail_bd tl) k).
Definition Pif (r : lifrest) := forall off prev ts cond c1 c2 r2 tb k,
  wf_ifrest off prev r -> efol off (ifrest_bd (bcol prev) r) (ifrest_tm r) (ifrest_io r) k ->
  PE off ts cond ((TTHEN, c1) :: (TEOL, c2) :: r2) ->
  PB off (skip_eol ((TEOL, c2) :: r2)) tb (skip_eol (r_ifrest inner r ++ k)) ->
  PIF off ts (EIf cond tb (er_ifrest r)) (aft (ifrest_bd (bcol prev) r) k).
Definition P1 (r : l1rest) := forall off ts cond c1 t2 c2 r2 te k,
  wf_1rest off r -> efol off (r1_bd r) (r1_tm r) (r1_io r) k ->
  PE off ts cond ((TTHEN, c1) :: (t2, c2) :: r2) -> t2 <> TEOL ->
  PE off ((t2, c2) :: r2) te (r_1rest inner r ++ k) ->
  PIF off ts (EIf cond (Blk [SExpr te]) (er_1rest r)) (aft (r1_bd r) k).
Definition Pbody (b : lbody) := forall off k, wf_body off b -> bfol (body_col b) (body_io b) k ->
  PB off (skip_eol (r_body inner b ++ k)) (er_body b) (skip_eol k).
Definition Pe (e : lexpr) :=
  (forall off c k, wf_expr off e -> efol off (expr_bd e) (expr_tm e) (expr_io e) k ->
     PE off (r_expr inner c e ++ k) (er_expr e) (aft (expr_bd e) k)) /\
  (forall off cur o c0 c k ts, wf_expr off e -> efol off (expr_bd e) (expr_tm e) (expr_io e) k ->
     skip_eol ts = (TOP o, c0) :: r_expr inner c e ++ k ->
     PBA off cur ts (er_cont cur o e) (aft (expr_bd e) k)).
Definition Ps (s : lstmt) := forall off c k, wf_stmt off s -> efol off (stmt_bd s) (stmt_tm s) (stmt_io s) k ->
  PS off (r_stmt inner c s ++ k) (er_stmt s) (aft (stmt_bd s) k).
Definition Pb (b : lblock) := forall off k, wf_block off b -> bfol (bcol b) (block_io b) k ->
  PB off (r_block inner b ++ k) (er_block b) (skip_eol k).
Definition Pr (r : lrest) := forall cb c s k, Ps s -> wf_stmt cb s -> wf_rest cb s r -> bfol cb (rest_io (stmt_io s) r) k ->
  PSS cb (r_stmt inner c s ++ r_rest inner r ++ k) (er_stmt s :: er_rest r) (skip_eol k).
(* the second part is for the arm before a default arm: p_urules parses that last arm by p_rule itself *)
Definition Parms (a : larms) := forall off prev k, wf_arms off prev a -> efol off (Some (arms_bd a)) true (arms_io a) k ->
  PUR off (r_arms inner a ++ k) (er_arms a) (skip_eol k) /\
  (forall bc p b, a = MLast bc p b -> PRL off (r_arms inner a ++ k) (Rule (er_pat p) (er_body b)) (skip_eol k)).
Definition Psarms (a : lsarms) := forall off prev k, wf_sarms off prev a -> efol off (Some (sarms_bd a)) false (sarms_io a) k ->
  match a with
  | SCons _ _ _ _ _ => PSR off (r_sarms inner a ++ k) (er_sarms a) (skip_eol k)
  | SLast _ _ _ => exists x, er_sarms a = [x] /\ PRL off (r_sarms inner a ++ k) x (skip_eol k)
  end.

Scheme latom_m := Induction for latom Sort Prop
  with lseq_m := Induction for lseq Sort Prop
  with latoms_m := Induction for latoms Sort Prop
  with lterm_m := Induction for lterm Sort Prop
  with liftail_m := Induction for liftail Sort Prop
  with lifrest_m := Induction for lifrest Sort Prop
  with l1rest_m := Induction for l1rest Sort Prop
  with lbody_m := Induction for lbody Sort Prop
  with lexpr_m := Induction for lexpr Sort Prop
  with lstmt_m := Induction for lstmt Sort Prop
  with lblock_m := Induction for lblock Sort Prop
  with lrest_m := Induction for lrest Sort Prop
  with larms_m := Induction for larms Sort Prop
  with lsarms_m := Induction for lsarms Sort Prop.
Combined Scheme l_mutind from latom_m, lseq_m, latoms_m, lterm_m, liftail_m, lifrest_m, l1rest_m, lbody_m, lexpr_m, lstmt_m, lblock_m, lrest_m, larms_m, lsarms_m.

Lemma span_pat p c r :
  span_until is_arrow (r_pat inner p ++ (TARROW, c) :: r) = (er_pat p, (TARROW, c) :: r).
Proof. destruct p as [cn [v|]|]; reflexivity. Qed.

Lemma r_pat_first_not_default bc p r :
  not_default p -> is_default_mr ((TBAR, bc) :: r_pat inner p ++ r) = false /\ is_slit_rule ((TBAR, bc) :: r_pat inner p ++ r) = false.
Proof. destruct p as [cn [v|]|]; cbn; intros H; try contradiction; split; reflexivity. Qed.

Lemma r_arms_shape a k : exists bc p r, r_arms inner a ++ k = (TBAR, bc) :: r_pat inner p ++ r /\
  match a with MLast bc' p' _ => bc' = bc /\ p' = p | MCons bc' p' _ _ _ => bc' = bc /\ p' = p end.
Proof.
  destruct a as [bc p b|bc p b bl r]; cbn [r_arms]; exists bc, p; eexists; (split; [|split; reflexivity]);
  cbn [app]; rewrite <- app_assoc; reflexivity.
Qed.

(* the contract of a then-block followed by the rest of the if *)
Lemma then_block_fol off t r k :
  wf_ifrest off t r -> efol off (ifrest_bd (bcol t) r) (ifrest_tm r) (ifrest_io r) k ->
  bfol (bcol t) (block_io t) (r_ifrest inner r ++ k).
Proof.
  intros Wr F. destruct r as [|bl ec b|bl ec cd' tl'].
  - rewrite r_ifrest_IEnd. cbn [app]. cbn [ifrest_bd ifrest_io] in F.
    destruct F as (E & NE & F). split; [exact E|]. split; [exact NE|].
    destruct (skip_eol k) as [|[t0 c0] r0]; [exact I|]. destruct F as (N & B & _ & IO).
    split; [exact N|]. split; [apply B; reflexivity|]. intros _. apply IO. reflexivity.
  - cbn [wf_ifrest] in Wr. destruct Wr as (L & IOt & _).
    split; [reflexivity|]. split; [rewrite r_ifrest_IElse; exact I|].
    rewrite r_ifrest_IElse, <- app_assoc, skip_nl. cbn [app skip_eol].
    split; [reflexivity|]. split; [right; exact L|]. rewrite IOt. discriminate.
  - cbn [wf_ifrest] in Wr. destruct Wr as (L & IOt & _).
    split; [reflexivity|]. split; [rewrite r_ifrest_IElif; exact I|].
    rewrite r_ifrest_IElif, <- app_assoc, skip_nl. cbn [app skip_eol].
    split; [reflexivity|]. split; [right; exact L|]. rewrite IOt. discriminate.
Qed.

(* what follows a same-line then-body *)
Lemma r1rest_fol off r k : efol off (r1_bd r) (r1_tm r) (r1_io r) k ->
  end_of_term (r_1rest inner r ++ k) = true /\ nobin (skip_eol (r_1rest inner r ++ k)).
Proof.
  intros F. destruct r as [|e|cd tl|bl ec b|bl ec cd tl].
  - rewrite r_1rest_R1End. cbn [app]. split; [apply F|eapply efol_nobin; exact F].
  - rewrite r_1rest_R1Else. split; reflexivity.
  - rewrite r_1rest_R1Elif. split; reflexivity.
  - rewrite r_1rest_R1NlElse, <- app_assoc, skip_nl. split; reflexivity.
  - rewrite r_1rest_R1NlElif, <- app_assoc, skip_nl. split; reflexivity.
Qed.

(* after an element: the separator or the closing token *)
Lemma aft_sep k bd sb rest : sep_ok bd sb -> exists c1, aft bd (r_sep inner k sb ++ rest) = (g_sep k, c1) :: rest.
Proof.
  destruct bd as [b|], sb as [[bl c1]|]; cbn [sep_ok]; intros H; try contradiction.
  - exists c1. cbn [aft r_sep]. rewrite <- app_assoc, skip_nl. cbn [app]. apply skip_eol_nonEOL. destruct k; discriminate.
  - exists inner. reflexivity.
Qed.
Lemma aft_close k bd cl rest : close_ok k bd cl -> exists c2, aft bd (r_gclose inner k cl ++ rest) = (g_close k, c2) :: rest.
Proof.
  intros H. destruct bd as [b|].
  - destruct cl as [[bl c1]|].
    + exists c1. cbn [aft r_gclose]. rewrite <- app_assoc, skip_nl. cbn [app]. apply skip_eol_nonEOL. destruct k; discriminate.
    + exists inner. cbn [aft r_gclose app]. apply skip_eol_nonEOL. destruct k; discriminate.
  - destruct cl as [[bl c1]|]; [destruct k; contradiction|]. exists inner. reflexivity.
Qed.

Lemma elem_fol off k e more cl kk :
  wf_seq off k (expr_bd e) more cl ->
  efol off (expr_bd e) (expr_tm e) (expr_io e) (r_seq inner k more ++ r_gclose inner k cl ++ kk).
Proof.
  intros W.
  (* an element is followed by the separator or the closing token [t0], on its line or on a later one ([sb]); both
     times the contract asks what sep_ok / close_ok grant: after an open block, left of it on a later line, or ')' *)
  assert (G : forall t0 sb rest, (t0 = g_sep k \/ t0 = g_close k) ->
              (match expr_bd e, sb with None, None => True | Some b, Some (_, c) => c < b \/ t0 = TRP | Some b, None => t0 = TRP | None, Some _ => False end) ->
              efol off (expr_bd e) (expr_tm e) (expr_io e)
                   (match sb with None => [(t0, inner)] | Some (bl, c) => nl bl ++ [(t0, c)] end ++ rest)).
  { intros t0 sb rest T H.
    assert (NB : is_binop t0 = false /\ end_of_term ((t0, inner) :: rest) = true /\ ~ takes t0 /\ noelse t0 /\ t0 <> TEOL /\ t0 <> TELSE /\ t0 <> TELIF).
    { destruct T as [-> | ->]; destruct k; cbn; repeat split; try discriminate; intros [X|[X|X]]; discriminate. }
    destruct NB as (N1 & N2 & N3 & N4 & N5 & N6 & N7).
    destruct sb as [[bl c]|].
    - split; [reflexivity|]. split; [exact I|]. rewrite <- app_assoc, skip_nl. cbn [app].
      rewrite (skip_eol_nonEOL _ _ _ N5). split; [exact N1|]. split; [|split].
      + intros b Hb. rewrite Hb in H. destruct H as [H|H]; [right; exact H|left; exact H].
      + intros _ X. contradiction.
      + intros _. exact N4.
    - cbn [app]. split; [destruct t0; cbn in *; try reflexivity; try discriminate|].
      split; [destruct t0; try exact I; congruence|].
      rewrite (skip_eol_nonEOL _ _ _ N5). split; [exact N1|]. split; [|split].
      + intros b Hb. rewrite Hb in H. left. exact H.
      + intros _ X. contradiction.
      + intros _. exact N4. }
  destruct more as [|sb f c e' more'].
  - cbn [wf_seq] in W. cbn [r_seq app]. unfold r_gclose. apply G; [right; reflexivity|].
    unfold close_ok, sep_ok in W. destruct k, (expr_bd e), cl as [[? ?]|]; cbn in *; try contradiction; auto.
  - cbn [wf_seq] in W. destruct W as (S & _). rewrite r_seq_QCons. unfold r_sep. rewrite <- !app_assoc.
    apply G; [left; reflexivity|]. unfold sep_ok in S. destruct (expr_bd e), sb as [[? ?]|]; cbn in *; try contradiction; auto.
Qed.

(* a record field up to its value: the name, '=' (possibly on a later line), the line ends after it *)
Lemma field_start x (n1 n2 : option (nat * nat)) c e K : exists c1,
  field_name x (match n1 with None => [(TEQ, inner)] | Some (bl, c1) => nl bl ++ [(TEQ, c1)] end ++
                match n2 with None => [] | Some (bl, _) => nl bl end ++ r_expr inner c e ++ K) =
  ([TA x], (TEQ, c1) :: match n2 with None => [] | Some (bl, _) => nl bl end ++ r_expr inner c e ++ K) /\
  skip_eol (match n2 with None => [] | Some (bl, _) => nl bl end ++ r_expr inner c e ++ K) = r_expr inner c e ++ K.
Proof.
  assert (SK : skip_eol (match n2 with None => [] | Some (bl, _) => nl bl end ++ r_expr inner c e ++ K) =
               r_expr inner c e ++ K) by (destruct n2 as [[bl cc]|]; [rewrite skip_nl|]; apply skip_expr).
  unfold field_name. destruct n1 as [[bl c1]|].
  - exists c1. rewrite <- app_assoc, skip_nl. split; [reflexivity|exact SK].
  - exists inner. split; [reflexivity|exact SK].
Qed.

Lemma PT_app a l off c k :
  Pa a -> Pas l -> wf_atom off a -> wf_atoms off l -> (is_slice a = true -> l = ANil) -> end_of_term k = true ->
  PT off (r_atom inner c a ++ r_atoms inner l ++ k) (EApp (er_atom a :: er_atoms l)) k.
Proof.
  intros HA HL Wa Wl SL E.
  destruct (r_atom_head c a (r_atoms inner l ++ k)) as (t0 & r & E0 & H0).
  destruct (is_slice a) eqn:IS.
  - rewrite (SL eq_refl) in *. cbn [r_atoms er_atoms app] in *. subst t0.
    pose proof (HA off c k Wa) as P. rewrite E0 in *. ev_step p_term_S beta_iota. ev_last_call P.
  - pose proof (HL off a c k HA Wa Wl E) as P. rewrite E0 in *. apply PT_atoms; [exact H0|exact P].
Qed.

Theorem inversion :
  (forall a, Pa a) /\ (forall q, Pq q) /\ (forall l, Pas l) /\ (forall t, Pt t) /\ (forall tl, Ptail tl) /\ (forall r, Pif r) /\
  (forall r, P1 r) /\ (forall b, Pbody b) /\
  (forall e, Pe e) /\ (forall s, Ps s) /\ (forall b, Pb b) /\ (forall r, Pr r) /\ (forall a, Parms a) /\
  (forall a, Psarms a).
Proof.
  apply l_mutind.
  - (* LA *) intros a off c k _. apply PA_ta.
  - (* LS *) intros a off c k _. ev_step p_atom_S beta_iota. ev_done.
  - (* LLam *)
    intros ps b IHb cl off c k W. cbn [wf_atom] in W. rewrite r_atom_LLam. cbn [er_atom]. app_to_right.
    set (K := r_close inner cl ++ k).
    assert (SK : exists c2, skip_eol K = (TRP, c2) :: k /\ end_of_term K = true /\ nohd_else K).
    { unfold K. destruct cl as [[bl c2]|]; cbn [r_close].
      - exists c2. rewrite <- app_assoc. rewrite skip_nl. repeat split.
      - exists inner. repeat split. }
    destruct SK as (c2 & SK & EK & NK).
    eapply PA_tuple with (c2 := c2); [discriminate| |apply PCM_nil; exact I].
    eapply PE_intro.
    + eapply PT_fun; [apply span_atoks; [reflexivity|reflexivity]|].
      fold K. apply IHb; [exact W|]. split; [exact EK|]. split; [exact NK|]. rewrite SK.
      split; [reflexivity|]. split; [left; reflexivity|]. intros _. split; discriminate.
    + rewrite SK. apply PBA_stop. cbn. reflexivity.
  - (* LUnit *) intros off c k _. ev_step p_atom_S beta_iota. ev_done.
  - (* LGroup *)
    intros g f e (IHe & _) more IHq cl off c k W. cbn [wf_atom] in W. destruct W as (Fo & We & Wq).
    rewrite r_atom_LGroup. cbn [er_atom app]. rewrite <- !app_assoc.
    pose proof (elem_fol off g e more cl k Wq) as F.
    pose proof (IHe off (fld_col inner inner f) _ We F) as PEe.
    destruct (IHq off g (expr_bd e) cl k Wq) as (c2 & Q).
    destruct g; cbn [g_open].
    + (* tuple *) destruct f; [contradiction|]. cbn [r_fld fld_col app] in *.
      destruct (r_expr_head inner e (r_seq inner GPar more ++ r_gclose inner GPar cl ++ k)) as (t0 & r0 & E0 & H0).
      rewrite E0 in *. eapply PA_tuple; [apply (stmt_head_facts t0 (or_intror H0))|exact PEe|exact Q].
    + (* slice *) destruct f; [contradiction|]. cbn [r_fld fld_col app] in *.
      ev_step p_atom_S beta_iota. ev_call PEe. ev_last_call Q.
    + (* record *) destruct f as [[[x n1] n2]|]; [|contradiction].
      apply PA_rec with (c2 := c2).
      destruct (field_start x n1 n2 (fld_col inner inner (Some (x, n1, n2))) e
                  (r_seq inner GRec more ++ r_gclose inner GRec cl ++ k)) as (c1 & FN & SK).
      cbn [r_fld app]. rewrite <- !app_assoc. cbn [er_fld].
      destruct more as [|sb f' c' e' more'].
      * cbn [r_seq app er_fseq] in *. rewrite Q in PEe.
        eapply PFL_last; [exact FN|]. rewrite SK. exact PEe.
      * destruct Q as (c3 & EQ & PF). rewrite EQ in PEe.
        eapply PFL_cons; [exact FN| |exact PF]. rewrite SK. exact PEe.
  - (* QNil *)
    intros off g bd cl kk W. cbn [wf_seq] in W. cbn [r_seq app er_seq].
    destruct (aft_close g bd cl kk W) as (c2 & E). exists c2. rewrite E.
    destruct g; cbn [g_close]; [apply PCM_nil; exact I|ev_step p_semis_S beta_iota; ev_done|reflexivity].
  - (* QCons *)
    intros sb f c e (IHe & _) more IHq off g bd cl kk W. cbn [wf_seq] in W. destruct W as (So & Fo & We & Wq).
    pose proof (elem_fol off g e more cl kk Wq) as F.
    pose proof (IHe off (fld_col inner c f) _ We F) as PEe.
    destruct (IHq off g (expr_bd e) cl kk Wq) as (c2 & Q). exists c2.
    rewrite r_seq_QCons, <- !app_assoc.
    destruct (aft_sep g bd sb (r_fld inner c f ++ r_expr inner (fld_col inner c f) e ++ r_seq inner g more ++ r_gclose inner g cl ++ kk) So) as (c1 & E).
    rewrite E. destruct g; cbn [g_sep].
    + destruct f; [contradiction|]. cbn [r_fld fld_col app] in *. cbn [er_seq].
      ev_step p_commas_S beta_iota. ev_call PEe. ev_last_call Q.
    + destruct f; [contradiction|]. cbn [r_fld fld_col app] in *. cbn [er_seq].
      ev_step p_semis_S beta_iota. ev_call PEe. ev_last_call Q.
    + destruct f as [[[x n1] n2]|]; [|contradiction]. exists c1. split; [reflexivity|].
      destruct (field_start x n1 n2 (fld_col inner c (Some (x, n1, n2))) e
                  (r_seq inner GRec more ++ r_gclose inner GRec cl ++ kk)) as (c4 & FN & SK).
      cbn [r_fld app]. rewrite <- !app_assoc. cbn [er_fseq er_fld].
      destruct more as [|sb' f' c' e' more'].
      * cbn [r_seq app er_fseq] in *. rewrite Q in PEe.
        eapply PFL_last; [exact FN|]. rewrite SK. exact PEe.
      * destruct Q as (c3 & EQ & PF). rewrite EQ in PEe.
        eapply PFL_cons; [exact FN| |exact PF]. rewrite SK. exact PEe.
  - (* ANil *) intros off a c k PAa Wa _ E. cbn [r_atoms er_atoms app]. apply PAS_one; [apply PAa; exact Wa|exact E].
  - (* ACons *)
    intros c' a' IHa' l' IHl' off a c k PAa Wa Wl E. cbn [wf_atoms] in Wl. destruct Wl as (Wa' & Wl').
    rewrite r_atoms_ACons. cbn [er_atoms]. app_to_right.
    eapply PAS_cons; [apply PAa; exact Wa| |].
    + destruct (r_atom_head_e c' a' (r_atoms inner l' ++ k)) as (t0 & r & E0 & _ & H0). rewrite E0. exact H0.
    + apply IHl'; assumption.
  - (* LApp *)
    intros a IHa l IHl off c k W F. cbn [wf_term] in W. destruct W as (Wa & Wl & SL). cbn [tfol] in F.
    rewrite r_term_LApp. cbn [er_term term_bd aft]. rewrite <- app_assoc.
    apply PT_app; assumption.
  - (* LIf *)
    intros cd tl IHtl off c k W F. cbn [wf_term] in W. cbn [tfol term_bd term_tm term_io] in F.
    rewrite r_term_LIf. cbn [er_term term_bd]. app_to_right. ev_step p_term_S beta_iota.
    eapply IHtl with (c1 := inner); [exact W|exact F|].
    apply PE_sx; reflexivity.
  - (* LMatch *)
    intros tg b0 arms IHa off c k W F. cbn [wf_term] in W. destruct W as (Wd & Wa). cbn [tfol term_bd term_tm term_io] in F.
    rewrite r_term_LMatch. cbn [er_term term_bd aft]. app_to_right.
    eapply PT_match with (c1 := inner).
    + apply PE_sx; reflexivity.
    + rewrite skip_nl.
      destruct (r_arms_shape arms k) as (bc & p & r & Es & Hs).
      assert (ND : not_default p) by (destruct arms; destruct Hs as (_ & <-); exact Wd).
      destruct (r_pat_first_not_default bc p r ND) as (D1 & D2).
      rewrite Es. rewrite (skip_eol_nonEOL TBAR bc _ ltac:(discriminate)).
      ev_step p_rules_S ltac:(rewrite D1, D2; beta_iota). rewrite <- Es. apply (IHa off None k Wa F).
  - (* LSMatch *)
    intros tg b0 arms IHa off c k W F. cbn [wf_term] in W. destruct W as (Wd & Wa). cbn [tfol term_bd term_tm term_io] in F.
    rewrite r_term_LSMatch. cbn [er_term term_bd aft]. app_to_right.
    eapply PT_match with (c1 := inner).
    + apply PE_sx; reflexivity.
    + rewrite skip_nl. pose proof (IHa off None k Wa F) as P.
      destruct arms as [bc fin b|bc lit b bl r]; [contradiction|].
      rewrite r_sarms_SCons in *. cbn [app] in *.
      rewrite (skip_eol_nonEOL TBAR bc _ ltac:(discriminate)).
      ev_step p_rules_S beta_iota. exact P.
  - (* TMulti *)
    intros b1 t IHt r IHr off ts cond c1 k W F PEc. cbn [wf_tail] in W. destruct W as (Wt & Wr).
    cbn [tail_bd tail_tm tail_io] in F. cbn [er_tail tail_bd].
    rewrite r_tail_TMulti in PEc. revert PEc. app_to_right. unfold Layout.nl at 1. cbn [app]. intros PEc.
    eapply IHr; [exact Wr|exact F|exact PEc|].
    cbn [skip_eol]. rewrite skip_eols, skip_block. apply IHt; [exact Wt|]. apply (then_block_fol off t r k Wr F).
  - (* TOne *)
    intros t r IHr off ts cond c1 k W F PEc. cbn [wf_tail] in W.
    cbn [tail_bd tail_tm tail_io] in F. cbn [er_tail tail_bd].
    rewrite r_tail_TOne in PEc. revert PEc. app_to_right. intros PEc.
    destruct (r_sx_head t (r_1rest inner r ++ k)) as (a2 & r2 & E2). rewrite E2 in PEc.
    destruct (r1rest_fol off r k F) as (EK & NK).
    eapply IHr; [exact W|exact F|exact PEc|discriminate|].
    rewrite <- E2. apply PE_sx; assumption.
  - (* IEnd *)
    intros off prev ts cond c1 c2 r2 tb k _ F PEc PBt. rewrite r_ifrest_IEnd in PBt. cbn [app] in PBt. cbn [er_ifrest ifrest_bd aft].
    ev_step p_if_S idtac. ev_call PEc. ev_call PBt. rewrite skip_eol_idem.
    cbn [ifrest_io] in F. destruct F as (_ & _ & F). destruct (skip_eol k) as [|[t0 c0] r0]; [ev_done|].
    destruct F as (_ & _ & _ & IO). destruct (IO eq_refl) as (N1 & N2). destruct t0; try ev_done; congruence.
  - (* IElse *)
    intros bl ec b IHb off prev ts cond c1 c2 r2 tb k W F PEc PBt.
    cbn [wf_ifrest] in W. destruct W as (_ & _ & Wb). cbn [ifrest_bd ifrest_io] in F. cbn [er_ifrest].
    rewrite r_ifrest_IElse, <- app_assoc, skip_nl in PBt. cbn [app skip_eol] in PBt.
    ev_step p_if_S idtac. ev_call PEc. ev_call PBt. cbn [skip_eol]. ev_last_call (IHb off k Wb (efol_bfol _ _ _ _ _ F)).
  - (* IElif *)
    intros bl ec cd tl IHtl off prev ts cond c1 c2 r2 tb k W F PEc PBt.
    cbn [wf_ifrest] in W. destruct W as (_ & _ & Wt). cbn [ifrest_bd ifrest_tm ifrest_io] in F. cbn [er_ifrest].
    cbn [ifrest_bd].
    rewrite r_ifrest_IElif, <- app_assoc, skip_nl in PBt. cbn [app skip_eol] in PBt.
    ev_step p_if_S idtac. ev_call PEc. ev_call PBt. cbn [skip_eol]. app_to_right.
    ev_call_by ltac:(eapply IHtl with (c1 := inner); [exact Wt|exact F|apply PE_sx; reflexivity]). ev_done.
  - (* R1End *)
    intros off ts cond c1 t2 c2 r2 te k _ F PEc N PEt. rewrite r_1rest_R1End in PEt. cbn [app] in PEt.
    cbn [r1_bd r1_tm r1_io] in F. cbn [er_1rest r1_bd aft].
    eapply PIF_to1; [exact PEc|exact N|].
    eapply PIF1_nl; [exact PEt|apply F|].
    apply PNL_none. intros Hn. apply andb_prop in Hn. destruct Hn as (_ & Hc).
    destruct F as (_ & _ & F). destruct (skip_eol k) as [|[t0 c0] r0]; [exact I|].
    destruct F as (_ & _ & TM & _). cbn [col_inside] in Hc. apply Nat.leb_le in Hc.
    destruct t0; try exact I.
    * specialize (TM eq_refl (or_intror (or_introl eq_refl))). lia.
    * specialize (TM eq_refl (or_intror (or_intror eq_refl))). lia.
  - (* R1Else *)
    intros e off ts cond c1 t2 c2 r2 te k _ F PEc N PEt. rewrite r_1rest_R1Else in PEt. cbn [app] in PEt.
    cbn [r1_bd r1_tm r1_io] in F. cbn [er_1rest r1_bd aft].
    eapply PIF_to1; [exact PEc|exact N|].
    ev_step p_if1_S idtac. ev_call PEt. ev_last_call (PE_sx off e k (proj1 F) (efol_nobin _ _ _ _ _ F)).
  - (* R1Elif *)
    intros cd tl IHtl off ts cond c1 t2 c2 r2 te k W F PEc N PEt. cbn [wf_1rest] in W.
    rewrite r_1rest_R1Elif in PEt. cbn [app] in PEt. rewrite <- app_assoc in PEt. cbn [app] in PEt.
    cbn [r1_bd r1_tm r1_io] in F. cbn [er_1rest r1_bd].
    eapply PIF_to1; [exact PEc|exact N|].
    ev_step p_if1_S idtac. ev_call PEt.
    ev_call_by ltac:(eapply IHtl with (c1 := inner); [exact W|exact F|apply PE_sx; reflexivity]). ev_done.
  - (* R1NlElse *)
    intros bl ec b IHb off ts cond c1 t2 c2 r2 te k W F PEc N PEt. cbn [wf_1rest] in W. destruct W as (L & Wb).
    cbn [r1_bd r1_tm r1_io] in F. cbn [er_1rest r1_bd aft].
    eapply PIF_to1; [exact PEc|exact N|].
    eapply PIF1_nl; [exact PEt|rewrite r_1rest_R1NlElse; exact I|].
    eapply PNL_else with (ec := ec); [rewrite r_1rest_R1NlElse; reflexivity| |exact L|].
    + rewrite r_1rest_R1NlElse, <- app_assoc, skip_nl. cbn [app]. apply skip_eol_nonEOL. discriminate.
    + apply IHb; [exact Wb|]. eapply efol_bfol; exact F.
  - (* R1NlElif *)
    intros bl ec cd tl IHtl off ts cond c1 t2 c2 r2 te k W F PEc N PEt. cbn [wf_1rest] in W. destruct W as (L & Wt).
    cbn [r1_bd r1_tm r1_io] in F. cbn [er_1rest r1_bd].
    eapply PIF_to1; [exact PEc|exact N|].
    eapply PIF1_nl; [exact PEt|rewrite r_1rest_R1NlElif; exact I|].
    eapply PNL_elif with (ec := ec); [rewrite r_1rest_R1NlElif; reflexivity| |exact L|].
    + rewrite r_1rest_R1NlElif, <- app_assoc, skip_nl. cbn [app]. rewrite <- app_assoc. cbn [app].
      apply skip_eol_nonEOL. discriminate.
    + eapply IHtl with (c1 := inner); [exact Wt|exact F|].
      apply PE_sx; reflexivity.
  - (* BInline *)
    intros b IHb off k W F. cbn [wf_body] in W. rewrite r_body_BInline. cbn [er_body]. rewrite skip_block.
    apply IHb; assumption.
  - (* BNext *)
    intros bl b IHb off k W F. cbn [wf_body] in W. rewrite r_body_BNext. cbn [er_body]. rewrite <- app_assoc, skip_nl, skip_block.
    apply IHb; assumption.
  - (* LT *)
    intros t IHt. split.
    + intros off c k W F. cbn [wf_expr] in W. cbn [expr_bd expr_tm expr_io] in F. rewrite r_expr_LT. cbn [er_expr expr_bd].
      eapply PE_intro; [apply IHt; [exact W|apply efol_tfol; exact F]|].
      apply PBA_stop. rewrite skip_aft. eapply efol_nobin; exact F.
    + intros off cur o c0 c k ts W F E. cbn [wf_expr] in W. cbn [expr_bd expr_tm expr_io] in F. rewrite r_expr_LT in E.
      cbn [er_cont expr_bd].
      eapply PBA_op; [exact E|reflexivity|apply IHt; [exact W|apply efol_tfol; exact F]|].
      apply PBA_stop. rewrite skip_aft. eapply efol_nobin; exact F.
  - (* LOp *)
    intros a IHa l IHl brk o' e' (IHe1 & IHe2).
    assert (KS : forall k, exists c0, skip_eol (r_brk inner brk o' ++ r_expr inner inner e' ++ k) = (TOP o', c0) :: r_expr inner inner e' ++ k
                         /\ end_of_term (r_brk inner brk o' ++ r_expr inner inner e' ++ k) = true).
    { intros k. destruct brk as [[bl c0]|]; cbn [r_brk].
      - exists c0. rewrite <- app_assoc, skip_nl. split; reflexivity.
      - exists inner. split; reflexivity. }
    split.
    + intros off c k W F. cbn [wf_expr] in W. destruct W as (Wa & Wl & SL & We). cbn [expr_bd expr_tm expr_io] in F.
      rewrite r_expr_LOp. cbn [er_expr expr_bd]. app_to_right.
      destruct (KS k) as (c0 & SK & EK).
      eapply PE_intro; [apply PT_app; assumption|].
      eapply IHe2; [exact We|exact F|exact SK].
    + intros off cur o c0 c k ts W F E. cbn [wf_expr] in W. destruct W as (Wa & Wl & SL & We). cbn [expr_bd expr_tm expr_io] in F.
      rewrite r_expr_LOp in E. cbn [er_cont expr_bd]. revert E. app_to_right. intros E.
      destruct (KS k) as (c1 & SK & EK).
      eapply PBA_op; [exact E|reflexivity|apply PT_app; assumption|].
      eapply IHe2; [exact We|exact F|exact SK].
  - (* LLet *)
    intros x nl0 e (IHe & _) off c k W F. cbn [wf_stmt] in W. cbn [stmt_bd stmt_tm stmt_io] in F. cbn [er_stmt stmt_bd].
    destruct nl0 as [[bl c']|]; [rewrite r_stmt_LLet_next|rewrite r_stmt_LLet_same]; app_to_right;
      (eapply PS_letv with (c1 := inner); [reflexivity|reflexivity|]);
      rewrite ?skip_nl, skip_expr; apply IHe; assumption.
  - (* LLetD *)
    intros x y zs nl0 e (IHe & _) off c k W F. cbn [wf_stmt] in W. cbn [stmt_bd stmt_tm stmt_io] in F.
    cbn [er_stmt stmt_bd].
    assert (SP : forall rest, span_until is_eq (r_dnames inner zs ++ (TRP, inner) :: (TEQ, inner) :: rest) =
                              (er_dnames zs ++ [TRP], (TEQ, inner) :: rest)).
    { intros rest. induction zs as [|z zs IH]; [reflexivity|]. cbn [r_dnames er_dnames app span_until is_eq orb].
      rewrite IH. reflexivity. }
    destruct nl0 as [[bl c']|]; [rewrite r_stmt_LLetD_next|rewrite r_stmt_LLetD_same]; app_to_right;
      (eapply PS_letv with (c1 := inner); [cbn [span_until is_eq orb]; rewrite SP; reflexivity|reflexivity|]);
      rewrite ?skip_nl, skip_expr; apply IHe; assumption.
  - (* LLetFn *)
    intros f p ps b IHb off c k W F. cbn [wf_stmt] in W. cbn [stmt_bd stmt_tm stmt_io] in F.
    rewrite r_stmt_LLetFn. cbn [er_stmt stmt_bd aft]. app_to_right.
    ev_step p_stmt_S ltac:(cbn [span_until is_eq orb];
      rewrite (span_atoks is_eq ps TEQ inner _ ltac:(reflexivity) ltac:(reflexivity)); cbn [is_var_hdr]).
    ev_last_call (IHb off k W (efol_bfol _ _ _ _ _ F)).
  - (* LExpr *)
    intros e (IHe & _) off c k W F. cbn [wf_stmt] in W. cbn [stmt_bd stmt_tm stmt_io] in F.
    rewrite r_stmt_LExpr. cbn [er_stmt stmt_bd].
    destruct (r_expr_head c e k) as (t0 & r & E0 & H0). pose proof (IHe off c k W F) as P. rewrite E0 in *.
    destruct t0; destruct H0; ev_step p_stmt_S beta_iota; ev_last_call P.
  - (* LB *)
    intros c s IHs r IHr off k W F. cbn [wf_block] in W. destruct W as (L & Ws & Wr). cbn [bcol] in F. cbn [block_io] in F.
    rewrite r_block_LB. cbn [er_block]. rewrite <- app_assoc.
    destruct (r_stmt_head c s (r_rest inner r ++ k)) as (t0 & r0 & E0 & H0).
    pose proof (IHr c c s k IHs Ws Wr F) as P. rewrite E0 in *.
    apply Nat.leb_gt in L. ev_step p_block_S ltac:(beta_iota; rewrite L). ev_call P. rewrite (wf_rest_last _ _ _ Wr). ev_done.
  - (* LNil *)
    intros cb c s k PSs Ws _ F. cbn [r_rest er_rest app rest_io] in *.
    pose proof (PSs cb c k Ws (bfol_efol cb s k Ws F)) as P1.
    ev_step p_stmts_S idtac. ev_call P1. cbv zeta. rewrite skip_aft.
    destruct F as (_ & _ & F). destruct (skip_eol k) as [|[t c'] r]; [ev_done|]. destruct F as (_ & [->|F] & _); cbn [end_of_block].
    + rewrite orb_true_r. ev_done.
    + apply Nat.ltb_lt in F. rewrite F. ev_done.
  - (* LCons *)
    intros bl c' s' IHs' r' IHr' cb c s k PSs Ws W F. cbn [wf_rest] in W. destruct W as (Lc & Un & Ws' & Wr').
    cbn [rest_io] in F.
    rewrite r_rest_LCons. cbn [er_rest]. app_to_right.
    set (tail := r_stmt inner c' s' ++ r_rest inner r' ++ k).
    destruct (r_stmt_head c' s' (r_rest inner r' ++ k)) as (t0 & r0 & E0 & H0). fold tail in E0.
    destruct (stmt_head_facts t0 H0) as (N1 & N2 & N3 & N4 & N5).
    assert (Sk : skip_eol (nl bl ++ tail) = (t0, c') :: r0).
    { rewrite skip_nl, E0. apply skip_eol_nonEOL. exact N1. }
    assert (O : efol cb (stmt_bd s) (stmt_tm s) (stmt_io s) (nl bl ++ tail)).
    { split; [reflexivity|]. split; [exact I|]. rewrite Sk. split; [exact N4|]. split; [|split].
      - intros b Hb. right. rewrite Hb in Un. exact Un.
      - intros _ Ht. destruct N5. destruct Ht as [Ht|[Ht|Ht]]; congruence.
      - intros _. exact N5. }
    pose proof (PSs cb c _ Ws O) as P1.
    assert (EB : end_of_block cb ((t0, c') :: r0) = false).
    { cbn [end_of_block]. apply Nat.ltb_ge in Lc. rewrite Lc. destruct t0; try reflexivity. congruence. }
    ev_step p_stmts_S idtac. ev_call P1. cbv zeta. rewrite skip_aft, Sk, EB, <- E0. unfold tail.
    ev_last_call (IHr' cb c' s' k IHs' Ws' Wr' F).
  - (* MLast *)
    intros bc p b IHb off prev k W F. cbn [wf_arms] in W. destruct W as (Lb & _ & Wb). cbn [arms_bd arms_io] in F.
    rewrite r_arms_MLast. cbn [er_arms].
    assert (R : PRL off ((TBAR, bc) :: r_pat inner p ++ (TARROW, inner) :: r_body inner b ++ k) (Rule (er_pat p) (er_body b)) (skip_eol k)).
    { eapply PRL_intro; [apply span_pat|]. apply IHb; [exact Wb|]. eapply efol_bfol; exact F. }
    cbn [app]. rewrite <- app_assoc. cbn [app]. split.
    + apply PUR_last; [exact R|].
      destruct F as (_ & _ & F). destruct (skip_eol k) as [|[t c'] r]; [reflexivity|]. destruct F as (_ & _ & F & _).
      destruct t; try reflexivity. cbn [bar_inside]. apply Nat.leb_gt. apply F; [reflexivity|left; reflexivity].
    + intros bc0 p0 b0 E. inversion E; subst. exact R.
  - (* MCons *)
    intros bc p b IHb bl r IHr off prev k W F. cbn [wf_arms] in W. destruct W as (Lb & _ & ND & Wb & Wr). cbn [arms_bd arms_io] in F.
    rewrite r_arms_MCons. cbn [er_arms]. split; [|intros; discriminate].
    cbn [app]. rewrite <- !app_assoc. cbn [app]. rewrite <- !app_assoc.
    set (K := nl bl ++ r_arms inner r ++ k).
    destruct (r_arms_shape r k) as (bc' & p' & r1 & Es & Hs).
    assert (SK : skip_eol K = (TBAR, bc') :: r_pat inner p' ++ r1).
    { unfold K. rewrite skip_nl, Es. apply skip_eol_nonEOL. discriminate. }
    assert (WB : off <= bc' /\ bc' < body_col b).
    { destruct r as [bc2 p2 b2|bc2 p2 b2 bl2 r2]; destruct Hs as (<- & _).
      - cbn [wf_arms] in Wr. destruct Wr as (? & U & _). cbn in U. auto.
      - cbn [wf_arms] in Wr. destruct Wr as (? & U & _). cbn in U. auto. }
    assert (R : PRL off ((TBAR, bc) :: r_pat inner p ++ (TARROW, inner) :: r_body inner b ++ K) (Rule (er_pat p) (er_body b)) (skip_eol K)).
    { eapply PRL_intro; [apply span_pat|]. apply IHb; [exact Wb|]. split; [reflexivity|]. split; [exact I|]. rewrite SK.
      split; [reflexivity|]. split; [right; apply WB|]. intros _. split; discriminate. }
    assert (BI : bar_inside off (skip_eol K) = true).
    { rewrite SK. cbn [bar_inside]. apply Nat.leb_le. apply WB. }
    destruct (IHr off (Some (body_col b)) k Wr F) as (PU & PL).
    destruct p' as [cn v|].
    + (* a further case arm *)
      eapply PUR_more; [exact R|exact BI| |].
      * rewrite SK. destruct v; reflexivity.
      * rewrite skip_eol_idem, SK, <- Es. exact PU.
    + (* the default arm: it is the last one *)
      destruct r as [bc2 p2 b2|bc2 p2 b2 bl2 r2]; destruct Hs as (<- & E2); subst p2.
      * cbn [er_arms].
        eapply PUR_def; [exact R|exact BI| |].
        -- rewrite SK. reflexivity.
        -- rewrite SK, <- Es. eapply PL. reflexivity.
      * cbn [wf_arms] in Wr. destruct Wr as (_ & _ & ND2 & _). contradiction.
  - (* SLast *)
    intros bc fin b IHb off prev k W F. cbn [wf_sarms] in W. destruct W as (_ & _ & Wb). cbn [sarms_bd sarms_io] in F.
    pose proof (IHb off k Wb (efol_bfol _ _ _ _ _ F)) as PBb.
    destruct fin as [v|].
    + exists (Rule [TA v] (er_body b)). split; [reflexivity|]. rewrite r_sarms_SLast_var. cbn [app].
      eapply PRL_intro with (c1 := inner); [reflexivity|exact PBb].
    + exists (Rule [TUS] (er_body b)). split; [reflexivity|]. rewrite r_sarms_SLast_def. cbn [app].
      eapply PRL_intro with (c1 := inner); [reflexivity|exact PBb].
  - (* SCons *)
    intros bc lit b IHb bl r IHr off prev k W F. cbn [wf_sarms] in W. destruct W as (_ & Wb & Wr). cbn [sarms_bd sarms_io] in F.
    rewrite r_sarms_SCons. cbn [er_sarms app]. rewrite <- !app_assoc.
    set (K := nl bl ++ r_sarms inner r ++ k).
    pose proof (IHr off (Some (body_col b)) k Wr F) as PR.
    destruct r as [bc' fin b'|bc' lit' b' bl' r'].
    + (* the closing rule follows *)
      cbn [wf_sarms] in Wr. destruct Wr as (U & IN & _). cbn [under] in U.
      destruct PR as (x & Ex & PLx). rewrite Ex.
      assert (SK : exists t2, skip_eol K = (TBAR, bc') :: (t2, inner) :: (TARROW, inner) :: r_body inner b' ++ k /\
                  (t2 = TUS <-> fin = None) /\ (forall a, t2 <> TSTR a) /\ r_sarms inner (SLast bc' fin b') ++ k = skip_eol K).
      { unfold K. rewrite skip_nl. destruct fin as [v|].
        - exists (TA v). rewrite r_sarms_SLast_var. cbn [app]. rewrite (skip_eol_nonEOL TBAR bc' _ ltac:(discriminate)).
          repeat split; try discriminate; intros; discriminate.
        - exists TUS. rewrite r_sarms_SLast_def. cbn [app]. rewrite (skip_eol_nonEOL TBAR bc' _ ltac:(discriminate)).
          repeat split; try discriminate; intros; discriminate. }
      destruct SK as (t2 & SK & TU & TS & ER).
      assert (R : PRL off ((TBAR, bc) :: (TSTR lit, inner) :: (TARROW, inner) :: r_body inner b ++ K) (Rule [TSTR lit] (er_body b)) (skip_eol K)).
      { eapply PRL_intro with (c1 := inner); [reflexivity|]. apply IHb; [exact Wb|]. split; [reflexivity|]. split; [exact I|]. rewrite SK.
        split; [reflexivity|]. split; [right; exact U|]. intros _. split; discriminate. }
      eapply PSR_last; [exact R| | |].
      * rewrite SK. destruct t2; try reflexivity. exfalso. eapply TS; reflexivity.
      * rewrite SK. cbn [is_default_mr bar_inside].
        destruct t2; try reflexivity. cbn [andb]. rewrite (proj2 (Nat.leb_le off bc') (IN (proj1 TU eq_refl))). reflexivity.
      * rewrite <- ER. exact PLx.
    + (* another literal rule *)
      cbn [wf_sarms] in Wr. destruct Wr as (U & _). cbn [under] in U.
      assert (SK : skip_eol K = r_sarms inner (SCons bc' lit' b' bl' r') ++ k).
      { unfold K. rewrite skip_nl, r_sarms_SCons. cbn [app]. apply skip_eol_nonEOL. discriminate. }
      assert (R : PRL off ((TBAR, bc) :: (TSTR lit, inner) :: (TARROW, inner) :: r_body inner b ++ K) (Rule [TSTR lit] (er_body b)) (skip_eol K)).
      { eapply PRL_intro with (c1 := inner); [reflexivity|]. apply IHb; [exact Wb|]. split; [reflexivity|]. split; [exact I|]. rewrite SK, r_sarms_SCons. cbn [app].
        split; [reflexivity|]. split; [right; exact U|]. intros _. split; discriminate. }
      eapply PSR_more; [exact R| |].
      * rewrite SK, r_sarms_SCons. reflexivity.
      * rewrite SK. exact PR.
Qed.

Lemma bfol_nil c io : bfol c io [].
Proof. split; [reflexivity|]. split; exact I. Qed.

Lemma p_root_skip n ts : p_root n (skip_eol ts) = p_root n ts.
Proof. destruct n; [reflexivity|]. cbn [p_root]. rewrite skip_eol_idem. reflexivity. Qed.

Definition root_head (t : tok) : Prop := t = TLET \/ t = TTYPE \/ exists k, t = TKW k.
Lemma root_head_facts t : root_head t -> t <> TEOL /\ t <> TBAR /\ t <> TRP /\ is_binop t = false /\ noelse t.
Proof. intros [->|[->|(k & ->)]]; repeat split; discriminate. Qed.

Lemma r_root_let c s k : wf_root (RLetL s) -> exists r, r_stmt inner c s ++ k = @cons ptok (TLET, c) r.
Proof.
  intros (_ & NE). destruct s as [x nl0 e|x y zs nl0 e|f pp ps b|e]; try contradiction.
  - destruct nl0 as [[? ?]|]; [rewrite r_stmt_LLet_next|rewrite r_stmt_LLet_same]; eexists; reflexivity.
  - rewrite r_stmt_LLetFn. eexists; reflexivity.
Qed.

Lemma r_root_head c x k : wf_root x -> exists t (r : list ptok), r_root inner c x ++ k = (t, c) :: r /\ root_head t.
Proof.
  destruct x as [s|name b0 c0 case0 cases|name b0 c0 d0 defs|kw toks]; intros W.
  - destruct (r_root_let c s k W) as (r & E). exists TLET, r. split; [exact E|left; reflexivity].
  - cbn [r_root app]. eexists; eexists; split; [reflexivity|right; left; reflexivity].
  - cbn [r_root app]. eexists; eexists; split; [reflexivity|right; right; eexists; reflexivity].
  - cbn [r_root app]. eexists; eexists; split; [reflexivity|right; right; eexists; reflexivity].
Qed.

Lemma r_prog_skip p prev : wf_prog prev p -> skip_eol (r_prog inner p) = [] \/
  exists t c r, skip_eol (r_prog inner p) = (t, c) :: r /\ root_head t /\ under prev c.
Proof.
  destruct p as [|[[bl c] x] p']; intros H; [left; reflexivity|right].
  cbn [wf_prog] in H. destruct H as (U & W & _).
  cbn [r_prog]. rewrite skip_eols.
  destruct (r_root_head c x (nl 0 ++ r_prog inner p') W) as (t & r & E & H).
  exists t, c, r. rewrite E. split; [apply skip_eol_nonEOL; apply (root_head_facts t H)|]. split; assumption.
Qed.

Definition PCS ts l r := Ev (fun n => p_cases n ts) (Ok (l, r)).
Lemma cases_parse : forall cases c0 case0 K,
  (match skip_eol K with (TBAR, _) :: _ => False | _ => True end) -> head_is_eol K = true ->
  PCS ((TBAR, c0) :: atoks case0 ++ r_cases inner cases ++ K)
      (map TA case0 :: map (fun c => map TA (snd c)) cases) K.
Proof.
  induction cases as [|[[bl c] toks] cases IH]; intros c0 case0 K NB HK.
  - cbn [r_cases app map]. ev_step_by ltac:(cbn [p_cases]).
    destruct K as [|[t cc] K']; [discriminate|]. destruct t; try discriminate.
    rewrite (span_atoks is_bar case0 TEOL cc K' ltac:(reflexivity) ltac:(reflexivity)).
    cbn [skip_eol] in *. destruct (skip_eol K') as [|[t2 c2] r2]; [ev_done|]. destruct t2; try ev_done; contradiction.
  - cbn [r_cases map snd]. rewrite <- !app_assoc. unfold Layout.nl at 1. cbn [app].
    ev_step_by ltac:(cbn [p_cases]; rewrite (span_atoks is_bar case0 TEOL inner _ ltac:(reflexivity) ltac:(reflexivity));
                  cbn [skip_eol]; rewrite skip_eols; cbn [skip_eol]; rewrite <- ?app_assoc).
    ev_last_call (IH c toks K NB HK).
Qed.

Definition PXD c ts l r := Ev (fun n => p_extdefs n c ts) (Ok (l, r)).
Lemma defs_parse c0 : forall defs ci d0 K,
  Forall (fun d => c0 <= snd (fst d)) defs ->
  end_of_block c0 (skip_eol K) = true -> head_is_eol K = true ->
  PXD c0 ((TLET, ci) :: atoks d0 ++ r_defs inner defs ++ K)
      ((TLET :: map TA d0) :: map (fun d => TLET :: map TA (snd d)) defs) (skip_eol K).
Proof.
  induction defs as [|[[bl c] toks] defs IH]; intros ci d0 K F EB HK.
  - cbn [r_defs app map]. destruct K as [|[t cc] K']; [discriminate|]. destruct t; try discriminate.
    ev_step_by ltac:(cbn [p_extdefs span_until never orb]; rewrite (span_atoks never d0 TEOL cc K' ltac:(reflexivity) ltac:(reflexivity)), EB).
    ev_done.
  - cbn [r_defs map snd]. rewrite <- !app_assoc. unfold Layout.nl at 1. cbn [app].
    inversion F as [|? ? Fc F']; subst. cbn [fst snd] in Fc.
    apply Nat.ltb_ge in Fc.
    ev_step_by ltac:(cbn [p_extdefs span_until never orb]; rewrite (span_atoks never d0 TEOL inner _ ltac:(reflexivity) ltac:(reflexivity));
                  cbn [skip_eol]; rewrite skip_eols; cbn [skip_eol end_of_block]; rewrite Fc; cbn [orb]; rewrite <- ?app_assoc).
    ev_last_call (IH c toks K F' EB HK).
Qed.

Lemma prog_inversion : forall p prev, wf_prog prev p ->
  exists n0, forall n, n0 <= n -> p_root n (r_prog inner p) = Ok (er_prog p).
Proof.
  destruct inversion as (_ & _ & _ & _ & _ & _ & _ & _ & _ & HS & _).
  induction p as [|[[bl c] x] p IH]; intros prev W.
  - ev_step_by idtac. ev_done.
  - cbn [wf_prog] in W. destruct W as (_ & Wx & Wp). specialize (IH _ Wp).
    set (k := nl 0 ++ r_prog inner p).
    assert (SKk : skip_eol k = skip_eol (r_prog inner p)) by (unfold k; apply skip_nl).
    (* the rest of the program, after a root item that leaves [bd] open *)
    assert (IHk : forall bd, Ev (fun n => p_root n (aft bd k)) (Ok (er_prog p))).
    { intros bd. destruct IH as (n2 & H2). exists n2. intros n Hn.
      rewrite <- p_root_skip, skip_aft, SKk, p_root_skip. apply H2, Hn. }
    destruct x as [s|name b0 c0 case0 cases|name b0 c0 d0 defs|kw toks].
    + (* a root let *)
      destruct Wx as (Ws & NE).
      assert (F : efol 0 (stmt_bd s) (stmt_tm s) (stmt_io s) k).
      { split; [reflexivity|]. split; [exact I|]. rewrite SKk.
        destruct (r_prog_skip p _ Wp) as [->|(t0 & c' & r & -> & H0 & U)]; [exact I|].
        destruct (root_head_facts t0 H0) as (N1 & N2 & N3 & N4 & N5).
        split; [exact N4|]. split; [|split].
        - intros b Hb. right. cbn [root_bd] in U. rewrite Hb in U. exact U.
        - intros _ Ht. destruct N5. destruct Ht as [Ht|[Ht|Ht]]; congruence.
        - intros _. exact N5. }
      destruct (r_root_let c s k (conj Ws NE)) as (r0 & E0).
      ev_step_by ltac:(cbn [r_prog r_root p_root]; rewrite skip_eols; fold k; rewrite skip_stmt, E0; beta_iota; rewrite <- E0).
      ev_call (HS s 0 c k Ws F). ev_last_call (IHk (stmt_bd s)).
    + (* a union definition *)
      assert (NB : match skip_eol k with (TBAR, _) :: _ => False | _ => True end).
      { rewrite SKk. destruct (r_prog_skip p _ Wp) as [->|(t0 & c' & r & -> & H0 & U)]; [exact I|].
        destruct (root_head_facts t0 H0) as (_ & N2 & _). destruct t0; try exact I. congruence. }
      ev_step_by ltac:(cbn [r_prog r_root p_root]; rewrite skip_eols; cbn [app skip_eol span_until is_eq orb];
                    rewrite <- ?app_assoc, ?skip_nl; cbn [app skip_eol]; rewrite <- ?app_assoc; fold k).
      ev_call (cases_parse cases c0 case0 k NB eq_refl). ev_last_call (IHk None).
    + (* a package_info block *)
      destruct Wx as (L0 & Fd). apply Nat.leb_gt in L0.
      assert (EB : end_of_block c0 (skip_eol k) = true).
      { rewrite SKk. destruct (r_prog_skip p _ Wp) as [->|(t0 & c' & r & -> & H0 & U)]; [reflexivity|].
        cbn [root_bd under] in U. cbn [end_of_block]. rewrite (proj2 (Nat.ltb_lt c' c0) U). reflexivity. }
      ev_step_by ltac:(cbn [r_prog r_root p_root]; rewrite skip_eols;
                    cbn [app skip_eol is_pkginfo Nat.eqb span_until is_eq orb];
                    rewrite <- ?app_assoc, ?skip_nl; cbn [app skip_eol]; rewrite <- ?app_assoc; fold k; rewrite L0; beta_iota).
      ev_call (defs_parse c0 defs c0 d0 k Fd EB eq_refl). ev_last_call (IHk (Some c0)).
    + (* a package / import line *)
      ev_step_by ltac:(cbn [r_prog r_root p_root]; rewrite skip_eols; cbn [app skip_eol is_pkginfo Nat.eqb];
                    unfold Layout.nl; cbn [app Layout.eols repeat];
                    rewrite (span_atoks never toks TEOL inner _ ltac:(reflexivity) ltac:(reflexivity)); beta_iota).
      ev_last_call (IHk None).
Qed.

End Inv.

(** A valid layout is invisible: whatever the indentation amounts, blank lines and same-line/next-line choices
    recorded in the decorated program [p], and whatever the one column [inner] that all tokens share which are
    neither first on their line nor first of a same-line body, parsing its rendering gives the erased program. *)
Theorem layout_invariance_partial : forall inner p, wf_prog None p ->
  exists n0, forall n, n0 <= n -> parse_blocks n (r_prog inner p) = Ok (er_prog p).
Proof. intros inner p W. exact (prog_inversion inner p None W). Qed.

Corollary same_structure_same_parse : forall inner1 inner2 p1 p2,
  wf_prog None p1 -> wf_prog None p2 -> er_prog p1 = er_prog p2 ->
  exists n0, forall n, n0 <= n -> parse_blocks n (r_prog inner1 p1) = parse_blocks n (r_prog inner2 p2).
Proof.
  intros i1 i2 p1 p2 W1 W2 E.
  destruct (layout_invariance_partial i1 p1 W1) as (n1 & H1).
  destruct (layout_invariance_partial i2 p2 W2) as (n2 & H2).
  exists (Nat.max n1 n2). intros n Hn. rewrite H1, H2 by lia. rewrite E. reflexivity.
Qed.

Corollary block_layout_invariance : forall inner b off, wf_block off b ->
  exists n0, forall n, n0 <= n -> p_block n off (r_block inner b) = Ok (er_block b, []).
Proof.
  intros inner b off W. destruct (inversion inner) as (_ & _ & _ & _ & _ & _ & _ & _ & _ & _ & HB & _).
  pose proof (HB b off [] W (bfol_nil _ _)) as P. rewrite app_nil_r in P. exact P.
Qed.

(** a line whose first token is strictly left of the block ends the block there: the token is left
    for the enclosing construct (if the block ends in an if without else, that token is not else/elif) *)
Corollary dedent_ends_block : forall inner b off k t c' r,
  wf_block off b -> end_of_term k = true -> nohd_else k -> skip_eol k = (t, c') :: r -> is_binop t = false ->
  (block_io b = true -> noelse t) -> c' < bcol b ->
  exists n0, forall n, n0 <= n -> p_block n off (r_block inner b ++ k) = Ok (er_block b, (t, c') :: r).
Proof.
  intros inner b off k t c' r W E NE S N IO L.
  destruct (inversion inner) as (_ & _ & _ & _ & _ & _ & _ & _ & _ & _ & HB & _).
  rewrite <- S. apply HB; [exact W|]. split; [exact E|]. split; [exact NE|]. rewrite S.
  split; [exact N|]. split; [right; exact L|exact IO].
Qed.

Print Assumptions layout_invariance_partial.
Print Assumptions dedent_ends_block.
