(** C06, non-vacuity: concrete decorated programs in two or three layouts each. Every layout is valid,
    the layouts erase to one tree, and the parser, run on the rendered token streams with a fixed fuel,
    returns that tree; token streams written by hand for the one-line if/elif/else forms and for a dedent. *)
From Coq Require Import List Arith Lia.
From FoVerif Require Import Front.Layout.
Import ListNotations.

(* Splits the conjunction as it is written, without unfolding [wf_prog]: each part is then evaluated
   on its own, and no proof carries the normal form of its neighbours. *)
Ltac conjuncts := repeat match goal with |- _ /\ _ => split end.

(*  let f x =
      let y = g 1
      if c > 0 then
        h y |> k
      elif d then
        match u with
        | A i -> i
        | _ -> xs |> m (fun v -> v)
      else e
      if p then
        if q then r s
      let w = match t with
              | "a" -> b
              | "c" -> if j then k else l + n
              | o -> v
      z                                                     *)
Definition ex_prog (ci ct ca cb ce bl inner2 : nat) (nl1 : option (nat * nat)) (inl : bool) : lprog :=
  let body (b : lblock) := if inl then BInline b else BNext bl b in
  [(bl, 0, RLetL (LLetFn 1 2 []
     (BNext bl
       (LB ci (LLet 3 nl1 (LT (LApp (LA 4) (ACons inner2 (LA 5) ANil))))
        (LCons bl ci
          (LExpr (LT (LIf ((6, []), [(1, (7, []))]) (TMulti bl
             (LB ct (LExpr (LOp (LA 8) (ACons inner2 (LA 3) ANil) (if inl then None else Some (bl, ci)) 0 (LT (LApp (LA 9) ANil)))) LNil)
             (IElif bl ci ((10, []), []) (TMulti 0
                (LB ct (LExpr (LT (LMatch ((11, []), []) bl
                    (MCons ca (PCase 12 (Some 13)) (body (LB cb (LExpr (LT (LApp (LA 13) ANil))) LNil)) bl
                    (MLast ca PDef (BInline (LB (cb + 20) (LExpr (LOp (LA 14) ANil None 0
                          (LT (LApp (LA 15) (ACons inner2 (LLam [16] (body (LB (cb + 30) (LExpr (LT (LApp (LA 16) ANil))) LNil))
                                                                 (if inl then None else Some (1, 0))) ANil))))) LNil))))))) LNil)
                (IElse 0 ce (BInline (LB (ce + 5) (LExpr (LT (LApp (LA 17) ANil))) LNil)))))))))
        (LCons 0 ci (LExpr (LT (LIf ((19, []), []) (TMulti bl (LB ct (LExpr (LT (LIf ((20, []), []) (TOne ((21, [22]), []) R1End)))) LNil) IEnd))))
        (LCons bl ci (LLet 23 None (LT (LSMatch ((24, []), []) 0
             (SCons (if inl then ci else 0) 25 (body (LB cb (LExpr (LT (LApp (LS 26) ANil))) LNil)) bl
             (SCons (ci + 1) 27 (BInline (LB (cb + 9) (LExpr (LT (LIf ((28, []), []) (TOne ((29, []), []) (R1Else ((30, []), [(2, (31, []))])))))) LNil)) 0
             (SLast ci (Some 32) (BNext 0 (LB cb (LExpr (LT (LApp (LA 33) ANil))) LNil))))))))
        (LCons 0 (ci + (if inl then 0 else 1)) (LExpr (LT (LApp (LA 18) ANil))) LNil))))))))].

Definition ex_a := ex_prog 2 4 4 6 2 0 0 None true.
Definition ex_b := ex_prog 7 20 23 31 8 3 55 (Some (2, 1)) false.

Example two_layouts_one_tree :
  wf_prog None ex_a /\ wf_prog None ex_b /\ er_prog ex_a = er_prog ex_b /\
  r_prog 0 ex_a <> r_prog 99 ex_b /\
  parse_blocks 400 (r_prog 0 ex_a) = Ok (er_prog ex_a) /\
  parse_blocks 400 (r_prog 99 ex_b) = Ok (er_prog ex_a).
Proof.
  conjuncts.
  - vm_compute. repeat split; lia.
  - vm_compute. repeat split; try lia; discriminate.
  - reflexivity.
  - intros E. apply (f_equal (@List.length _)) in E. vm_compute in E. discriminate E.
  - reflexivity.
  - reflexivity.
Qed.

(** finding (n): Layout.v transcribes the parser of the repaired fc (isEndOfTerm knows elif; the one-line branch
    of parseIfAfterIfExpr also looks for elif on the same line and for else/elif on a later line inside the
    offside line), so the one-line forms give the tree of the multi-line form. The unrepaired fc rejects
    [if_one_line_elif], [if_inline_then_newline_else] and [if_inline_elif_newline_else]: see the comment
    C06_elif_one_line_refuted_old in Props/C06.v. *)
Definition if_multi : list ptok :=    (* let f x = / if c then / a / elif d then / b / else / e *)
  [(TLET,0);(TA 1,4);(TA 2,6);(TEQ,8);(TEOL,9);
   (TIF,2);(TA 3,5);(TTHEN,7);(TEOL,11);(TA 4,4);(TEOL,5);
   (TELIF,2);(TA 5,7);(TTHEN,9);(TEOL,13);(TA 6,4);(TEOL,5);
   (TELSE,2);(TEOL,6);(TA 7,4);(TEOL,5)].
Definition if_one_line_elif : list ptok :=   (* let f x = / if c then a elif d then b else e *)
  [(TLET,0);(TA 1,4);(TA 2,6);(TEQ,8);(TEOL,9);
   (TIF,2);(TA 3,5);(TTHEN,7);(TA 4,12);(TELIF,14);(TA 5,19);(TTHEN,21);(TA 6,26);(TELSE,28);(TA 7,33);(TEOL,34)].
Definition if_inline_elif_newline_else : list ptok :=   (* if c then / a / elif d then b / else / e *)
  [(TLET,0);(TA 1,4);(TA 2,6);(TEQ,8);(TEOL,9);
   (TIF,2);(TA 3,5);(TTHEN,7);(TEOL,11);(TA 4,4);(TEOL,5);
   (TELIF,2);(TA 5,7);(TTHEN,9);(TA 6,14);(TEOL,15);
   (TELSE,2);(TEOL,6);(TA 7,4);(TEOL,5)].
Definition if2_multi : list ptok :=    (* let f x = / if c then / a / else / e *)
  [(TLET,0);(TA 1,4);(TA 2,6);(TEQ,8);(TEOL,9);
   (TIF,2);(TA 3,5);(TTHEN,7);(TEOL,11);(TA 4,4);(TEOL,5);(TELSE,2);(TEOL,6);(TA 7,4);(TEOL,5)].
Definition if_inline_then_newline_else : list ptok :=   (* let f x = / if c then a / else e *)
  [(TLET,0);(TA 1,4);(TA 2,6);(TEQ,8);(TEOL,9);
   (TIF,2);(TA 3,5);(TTHEN,7);(TA 4,12);(TEOL,13);(TELSE,2);(TA 7,7);(TEOL,8)].
Definition if_inline_then_else_left_of_block : list ptok :=   (* the same with else at column 1: outside the block *)
  [(TLET,0);(TA 1,4);(TA 2,6);(TEQ,8);(TEOL,9);
   (TIF,2);(TA 3,5);(TTHEN,7);(TA 4,12);(TEOL,13);(TELSE,1);(TA 7,7);(TEOL,8)].

Example elif_one_line_accepted :
  (exists t, parse_blocks 200 if_multi = Ok t /\ parse_blocks 200 if_one_line_elif = Ok t /\
             parse_blocks 200 if_inline_elif_newline_else = Ok t) /\
  (exists t, parse_blocks 200 if2_multi = Ok t /\ parse_blocks 200 if_inline_then_newline_else = Ok t) /\
  parse_blocks 200 if_inline_then_else_left_of_block = Reject.
Proof.
  conjuncts.
  - eexists. conjuncts; reflexivity.
  - eexists. conjuncts; reflexivity.
  - reflexivity.
Qed.

(** the same if in three decorated layouts: multi-line; on one line; then-bodies on the if/elif lines with
    elif and else on later lines *)
Definition ex_if (tl : liftail) : lprog :=
  [(0, 0, RLetL (LLetFn 1 2 [] (BNext 0 (LB 2 (LExpr (LT (LIf ((3, []), []) tl))) LNil))))].
Definition one (a : nat) : lblock := LB 4 (LExpr (LT (LApp (LA a) ANil))) LNil.
Definition ex_if_multi := ex_if (TMulti 0 (one 4) (IElif 0 2 ((5, []), []) (TMulti 1 (one 6) (IElse 0 0 (BNext 0 (one 7)))))).
Definition ex_if_one_line := ex_if (TOne ((4, []), []) (R1Elif ((5, []), []) (TOne ((6, []), []) (R1Else ((7, []), []))))).
Definition ex_if_mixed := ex_if (TOne ((4, []), []) (R1NlElif 0 2 ((5, []), []) (TOne ((6, []), [])
                                  (R1NlElse 1 3 (BInline (LB 9 (LExpr (LT (LApp (LA 7) ANil))) LNil)))))).
Example if_three_layouts :
  wf_prog None ex_if_multi /\ wf_prog None ex_if_one_line /\ wf_prog None ex_if_mixed /\
  er_prog ex_if_multi = er_prog ex_if_one_line /\ er_prog ex_if_multi = er_prog ex_if_mixed /\
  parse_blocks 200 (r_prog 0 ex_if_multi) = Ok (er_prog ex_if_multi) /\
  parse_blocks 200 (r_prog 30 ex_if_one_line) = Ok (er_prog ex_if_multi) /\
  parse_blocks 200 (r_prog 30 ex_if_mixed) = Ok (er_prog ex_if_multi).
Proof.
  conjuncts; try reflexivity.
  all: vm_compute; repeat split; lia.
Qed.

(** a dedented statement changes the recovered structure (or is rejected) *)
Definition ded_ok : list ptok :=      (* let f x = / if c then / a / b / else / e    (b inside then) *)
  [(TLET,0);(TA 1,4);(TA 2,6);(TEQ,8);(TEOL,9);
   (TIF,2);(TA 3,5);(TTHEN,7);(TEOL,11);(TA 4,4);(TEOL,5);(TA 5,4);(TEOL,5);(TELSE,2);(TEOL,6);(TA 7,4);(TEOL,5)].
Definition ded_bad : list ptok :=     (* the line of b moved to column 2 *)
  [(TLET,0);(TA 1,4);(TA 2,6);(TEQ,8);(TEOL,9);
   (TIF,2);(TA 3,5);(TTHEN,7);(TEOL,11);(TA 4,4);(TEOL,5);(TA 5,2);(TEOL,3);(TELSE,2);(TEOL,6);(TA 7,4);(TEOL,5)].
Example dedent_example :
  (exists t, parse_blocks 200 ded_ok = Ok t) /\ parse_blocks 200 ded_bad = Reject.
Proof. split; [eexists|]; reflexivity. Qed.

(** groups: a parenthesised if as an argument with ')' on its own line, a tuple whose last element is a
    multi-line if, a slice and a record literal with a multi-line value followed by ';' / '}' on a later
    line, a record field broken after its name and after '=', a destructuring let, () *)
Definition ex_groups (multi : bool) (inner2 : nat) : lprog :=
  let v (a : nat) : lexpr := LT (LApp (LA a) ANil) in
  let iff (c0 : nat) : lexpr :=
    if multi then LT (LIf ((3, []), []) (TMulti 1 (LB (c0 + 4) (LExpr (v 4)) LNil) (IElse 0 c0 (BNext 0 (LB (c0 + 2) (LExpr (v 5)) LNil)))))
    else LT (LIf ((3, []), []) (TOne ((4, []), []) (R1Else ((5, []), [])))) in
  let cl (c0 : nat) := if multi then Some (1, c0) else None in
  [(0, 0, RLetL (LLetFn 1 2 []
     (BNext 0
       (LB 2 (LLetD 6 7 [8] (if multi then Some (0, 9) else None)
                 (LT (LApp (LGroup GPar None (v 9) (QCons None None inner2 (v 10) (QCons None None 12 (iff 12) QNil)) (cl 3)) ANil)))
       (LCons 0 2 (LLet 11 None (LT (LApp (LA 12) (ACons inner2 (LGroup GPar None (iff 14) QNil (cl 0)) (ACons inner2 LUnit ANil)))))
       (LCons 0 2 (LLet 13 None (LT (LApp (LGroup GSlice None (v 14) (QCons None None inner2 (iff 20) QNil) (cl 5)) ANil)))
       (LCons 0 2 (LExpr (LT (LApp (LGroup GRec (Some (15, (if multi then Some (0, 1) else None), (if multi then Some (2, 30) else None)))
                                      (iff 30)
                                      (QCons (cl 4) (Some (16, None, None)) inner2 (v 17) QNil) None) ANil))) LNil)))))))].
Example groups_two_layouts :
  wf_prog None (ex_groups true 7) /\ wf_prog None (ex_groups false 40) /\
  er_prog (ex_groups true 7) = er_prog (ex_groups false 40) /\
  parse_blocks 400 (r_prog 0 (ex_groups true 7)) = Ok (er_prog (ex_groups true 7)) /\
  parse_blocks 400 (r_prog 50 (ex_groups false 40)) = Ok (er_prog (ex_groups true 7)).
Proof.
  conjuncts; try reflexivity.
  all: vm_compute; repeat split; try lia; discriminate.
Qed.

(** root items: package / import lines, a union whose cases stand at arbitrary columns, a package_info block *)
Definition ex_roots (a b c0 : nat) : lprog :=
  [(0, 0, RLineL 0 [1]); (a, 0, RLineL 1 [2]);
   (a, 0, RUnionL 3 a b [4; 5; 6] [(a, 0, [7]); (0, b + 5, [8; 5; 9])]);
   (1, 0, RInfoL 10 a c0 [11; 12; 13] [(a, c0 + b, [14; 12; 15]); (0, c0, [16; 12; 17])]);
   (0, 0, RLetL (LLet 18 None (LT (LApp (LA 19) ANil))))].
Example roots_two_layouts :
  wf_prog None (ex_roots 0 2 2) /\ wf_prog None (ex_roots 3 9 7) /\
  er_prog (ex_roots 0 2 2) = er_prog (ex_roots 3 9 7) /\
  parse_blocks 400 (r_prog 0 (ex_roots 0 2 2)) = Ok (er_prog (ex_roots 0 2 2)) /\
  parse_blocks 400 (r_prog 33 (ex_roots 3 9 7)) = Ok (er_prog (ex_roots 0 2 2)).
Proof.
  conjuncts; try reflexivity.
  all: vm_compute; repeat split; try lia; repeat constructor; lia.
Qed.
