(** C08 proofs: precedence climbing returns the unique tree that is well-grouped by the table. *)
From Coq Require Import List Arith Lia Bool.
From FoVerif Require Import Front.BinOp.
Import ListNotations.

Lemma rank_pos o : 1 <= rank o.
Proof. destruct o; cbn; lia. Qed.

Lemma ranks_weaken a b (l : list optok) :
  b <= a -> Forall (fun o => a <= rank o) l -> Forall (fun o => b <= rank o) l.
Proof. intros L. apply Forall_impl. intros; lia. Qed.

Section Climb.
  Variable atom : Type.
  Notation tree := (tree atom).
  Notation rest := (rest atom).

  Lemma ops_tail_chain (t : tree) : map fst (tail_chain t) = ops t.
  Proof. induction t as [|o l IHl r IHr]; cbn; auto. rewrite map_app; cbn; congruence. Qed.

  (** In a well-grouped tree the root is the LAST operator of minimal rank. *)
  Lemma split_unique (l1 l2 l1' l2' : list optok) o o' :
    l1 ++ o :: l2 = l1' ++ o' :: l2' ->
    Forall (fun x => rank o <= rank x) l1 -> Forall (fun x => rank o < rank x) l2 ->
    Forall (fun x => rank o' <= rank x) l1' -> Forall (fun x => rank o' < rank x) l2' ->
    List.length l1 = List.length l1'.
  Proof.
    revert l1'. induction l1 as [|a l1 IH]; intros [|a' l1'] E F1 F2 F1' F2'; cbn in *; auto;
      injection E as E0 E1; subst.
    - apply Forall_inv in F1'. apply Forall_app in F2. destruct F2 as [_ F2]. apply Forall_inv in F2. lia.
    - apply Forall_inv in F1. apply Forall_app in F2'. destruct F2' as [_ F2']. apply Forall_inv in F2'. lia.
    - f_equal. apply (IH l1' E1); auto; eapply Forall_inv_tail; eauto.
  Qed.

  Lemma app_inv_len {A} (l1 l2 l1' l2' : list A) :
    l1 ++ l2 = l1' ++ l2' -> List.length l1 = List.length l1' -> l1 = l1' /\ l2 = l2'.
  Proof.
    revert l1'; induction l1 as [|a l1 IH]; intros [|a' l1'] E L; cbn in *; try discriminate; auto.
    inversion E; subst. destruct (IH l1' H1) as [-> ->]; auto.
  Qed.

  Lemma wg_unique : forall t1 t2 : tree, wg t1 -> wg t2 ->
    first_atom t1 = first_atom t2 -> tail_chain t1 = tail_chain t2 -> t1 = t2.
  Proof.
    induction t1 as [a|o l IHl r IHr]; intros [a'|o' l' r'] W1 W2 FA TC; cbn in *.
    - congruence.
    - destruct (tail_chain l'); discriminate.
    - destruct (tail_chain l); discriminate.
    - destruct W1 as (Wl & Wr & Fl & Fr). destruct W2 as (Wl' & Wr' & Fl' & Fr').
      pose proof (f_equal (map fst) TC) as E. rewrite !map_app in E. cbn in E. rewrite !ops_tail_chain in E.
      pose proof (split_unique _ _ _ _ _ _ E Fl Fr Fl' Fr') as L.
      rewrite <- !ops_tail_chain, !map_length in L.
      destruct (app_inv_len _ _ _ _ TC L) as (E1 & E2). inversion E2; subst.
      f_equal; [apply IHl | apply IHr]; auto.
  Qed.

  Definition below (minp : nat) (r : rest) : Prop :=
    match r with [] => True | (o, _) :: _ => rank o < minp end.

  (** loop invariant: every operator already in the accumulated left operand has rank >= the rank of
      the NEXT operator of the remaining chain *)
  Definition lhs_ok (lhs : tree) (r : rest) : Prop :=
    match r with [] => True | (o, _) :: _ => Forall (fun o' => rank o <= rank o') (ops lhs) end.

  Lemma climb_spec : forall fuel minp (lhs : tree) r t r',
    climb fuel minp lhs r = Some (t, r') ->
    wg lhs -> Forall (fun o => minp <= rank o) (ops lhs) -> lhs_ok lhs r ->
    wg t /\ Forall (fun o => minp <= rank o) (ops t) /\ first_atom t = first_atom lhs /\
    tail_chain lhs ++ r = tail_chain t ++ r' /\ below minp r'.
  Proof.
    induction fuel as [|fuel IH]; intros minp lhs r t r' H W F HO; cbn [climb] in H; [discriminate|].
    destruct r as [|[o a] r0].
    - inversion H; subst. repeat split; auto.
    - destruct (rank o <? minp) eqn:Lt.
      + inversion H; subst. apply Nat.ltb_lt in Lt. repeat split; auto.
      + apply Nat.ltb_ge in Lt. cbn in HO.
        destruct (climb fuel (S (rank o)) (Leaf a) r0) as [[rhs r1]|] eqn:C1; [|discriminate].
        destruct (IH _ _ _ _ _ C1 I (Forall_nil _)) as (Wr & Fr & FAr & TCr & Br).
        { destruct r0 as [|[? ?] ?]; cbn; auto. }
        destruct (IH _ _ _ _ _ H) as (Wt & Ft & FAt & TCt & Bt).
        { cbn. auto. }
        { cbn. apply Forall_app. split; [exact F|]. constructor; [exact Lt|].
          apply (ranks_weaken (S (rank o))); [lia|exact Fr]. }
        { destruct r1 as [|[o2 a2] r2]; cbn; auto. cbn in Br.
          apply Forall_app; split; [|constructor; [lia|]]; (eapply ranks_weaken; [|eassumption]; lia). }
        repeat split; auto.
        rewrite <- TCt. cbn in *. rewrite FAr. cbn. rewrite <- app_assoc. cbn. rewrite <- TCr. reflexivity.
  Qed.

  Lemma climb_fuel : forall fuel minp (lhs : tree) r, List.length r < fuel ->
    exists t r', climb fuel minp lhs r = Some (t, r') /\ List.length r' <= List.length r.
  Proof.
    induction fuel as [|fuel IH]; intros minp lhs r L; [lia|]. cbn [climb].
    destruct r as [|[o a] r0]; [eauto|].
    destruct (rank o <? minp); [eauto|]. cbn in L.
    destruct (IH (S (rank o)) (Leaf a) r0 ltac:(lia)) as (rhs & r1 & -> & L1).
    destruct (IH minp (Node o lhs rhs) r1 ltac:(lia)) as (t & r2 & -> & L2).
    exists t, r2; split; [reflexivity|cbn; lia].
  Qed.

  Lemma climb_whole a0 (r : rest) :
    exists t, climb (S (List.length r)) 1 (Leaf a0) r = Some (t, []) /\
              wg t /\ first_atom t = a0 /\ tail_chain t = r.
  Proof.
    destruct (climb_fuel (S (List.length r)) 1 (Leaf a0) r ltac:(lia)) as (t & r' & E & _).
    destruct (climb_spec _ _ _ _ _ _ E I (Forall_nil _)) as (W & _ & FA & TC & B).
    { destruct r as [|[? ?] ?]; cbn; auto. }
    destruct r' as [|[o a] ?]; [|cbn in B; pose proof (rank_pos o); lia].
    rewrite app_nil_r in TC. eauto.
  Qed.

  (** the fuel used by parse_chain always suffices (no OutOfFuel outcome), the result is
      well-grouped, its in-order traversal is the chain, and it is the only such tree *)
  Theorem parse_chain_correct a0 (r : rest) :
    exists t, parse_chain a0 r = Some t /\ wg t /\ first_atom t = a0 /\ tail_chain t = r /\
    forall t', wg t' -> first_atom t' = a0 -> tail_chain t' = r -> t' = t.
  Proof.
    unfold parse_chain. destruct (climb_whole a0 r) as (t & -> & W & FA & TC).
    exists t. repeat split; auto.
    intros t' W' FA' TC'. apply wg_unique; auto; congruence.
  Qed.

  Corollary parse_chain_wg (t : tree) : wg t -> parse_chain (first_atom t) (tail_chain t) = Some t.
  Proof.
    intros W. destruct (parse_chain_correct (first_atom t) (tail_chain t)) as (t' & -> & _ & _ & _ & U).
    f_equal. symmetry. apply U; auto.
  Qed.

  Lemma equal_rank_assoc_left (a b c : atom) o1 o2 : rank o1 = rank o2 ->
    parse_chain a [(o1, b); (o2, c)] = Some (Node o2 (Node o1 (Leaf a) (Leaf b)) (Leaf c)).
  Proof.
    intros E. apply (parse_chain_wg (Node o2 (Node o1 (Leaf a) (Leaf b)) (Leaf c))).
    cbn. repeat split; auto. constructor; [lia|auto].
  Qed.

  Lemma higher_rank_binds_tighter (a b c : atom) o1 o2 : rank o1 < rank o2 ->
    parse_chain a [(o1, b); (o2, c)] = Some (Node o1 (Leaf a) (Node o2 (Leaf b) (Leaf c))).
  Proof.
    intros E. apply (parse_chain_wg (Node o1 (Leaf a) (Node o2 (Leaf b) (Leaf c)))).
    cbn. repeat split; auto.
  Qed.
End Climb.
