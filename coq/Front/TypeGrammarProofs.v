(** C15 — proofs about Front/TypeGrammar.v: the parser inverts every spelling (minimal or with any
    number of redundant parentheses) of every well-formed type of any depth. *)
From Coq Require Import List String Ascii Arith Bool Lia.
From FoVerif Require Import Front.TypeGrammar.
Import ListNotations.

Section Proofs.
  Variable env : string -> option (string * nat).
  Local Notation dwf := (TypeGrammar.dwf env).
  Local Notation wf := (TypeGrammar.wf env).
  Local Notation arity_ok := (TypeGrammar.arity_ok env).

  (* [simpl]/[cbn] leave the sevenfold mutual fixpoint unfolded: one step of each function, by computation *)
  Lemma p_type_S : forall n ts, p_type env (S n) ts =
    match p_arrows env n ts with
    | Some (l, r) => match l with [t] => Some (t, r) | _ => Some (FFunc l, r) end
    | None => None
    end.
  Proof. reflexivity. Qed.
  Lemma p_arrows_S : forall n ts, p_arrows env (S n) ts =
    match p_elem env n ts with
    | Some (one, r) =>
      match r with
      | TArrow :: r1 =>
        match p_arrows env n r1 with Some (l, r2) => Some (one :: l, r2) | None => None end
      | _ => Some ([one], r)
      end
    | None => None
    end.
  Proof. reflexivity. Qed.
  Lemma p_elem_S : forall n ts, p_elem env (S n) ts =
    match p_term env n ts with
    | Some (one, r) =>
      match p_more env n r with
      | Some (l, r2) => match l with [] => Some (one, r2) | _ => Some (FTuple (one :: l), r2) end
      | None => None
      end
    | None => None
    end.
  Proof. reflexivity. Qed.
  Lemma p_more_S : forall n ts, p_more env (S n) ts =
    match ts with
    | TAster :: r1 =>
      match p_term env n r1 with
      | Some (t, r2) =>
        match p_more env n r2 with Some (l, r3) => Some (t :: l, r3) | None => None end
      | None => None
      end
    | _ => Some ([], ts)
    end.
  Proof. reflexivity. Qed.
  Lemma p_term_S : forall n ts, p_term env (S n) ts =
    match ts with
    | TLB :: r =>
      match r with
      | TRB :: r1 => match p_term env n r1 with Some (t, r2) => Some (FSlice t, r2) | None => None end
      | _ => None
      end
    | _ => p_atom env n ts
    end.
  Proof. reflexivity. Qed.
  Lemma p_atom_paren : forall n r, p_atom env (S n) (TLP :: r) =
    match r with
    | TRP :: r1 => Some (FUnit, r1)
    | _ => match p_type env n r with Some (t, TRP :: r2) => Some (t, r2) | _ => None end
    end.
  Proof. reflexivity. Qed.
  Lemma p_atom_id : forall n s r, p_atom env (S n) (TId s :: r) =
    match base_of s with
    | Some b => Some (b, r)
    | None =>
      match full_name_rest r with
      | Some (l, r4) =>
        match env (join_dot (s :: l)) with
        | Some (_, arity) =>
          match r4 with
          | TLt :: r5 =>
            match p_tlist env n r5 with
            | Some (args, TGt :: r6) =>
              if Nat.eqb (List.length args) arity then Some (FNamed (s :: l) args, r6) else None
            | _ => None
            end
          | _ => if Nat.eqb arity 0 then Some (FNamed (s :: l) [], r4) else None
          end
        | None => None
        end
      | None => None
      end
    end.
  Proof. reflexivity. Qed.
  Lemma p_tlist_S : forall n ts, p_tlist env (S n) ts =
    match p_type env n ts with
    | Some (one, r) =>
      match r with
      | TComma :: r1 =>
        match p_tlist env n r1 with Some (l, r2) => Some (one :: l, r2) | None => None end
      | _ => Some ([one], r)
      end
    | None => None
    end.
  Proof. reflexivity. Qed.

  (** level 0 = TYPE (p_type), 1 = ELEM_TYPE (p_elem), 2 = TERM_TYPE (p_term), 3 = ATOM_TYPE (p_atom) *)
  Definition p_level (lv : nat) : nat -> list tok -> option (ftype * list tok) :=
    match lv with
    | 0 => p_type env
    | 1 => p_elem env
    | 2 => p_term env
    | _ => p_atom env
    end.

  (* the calls from the level's function down to the token test of p_atom (one to spare above
     p_term); [parses] then grants 8 per token, more than the seven functions a token can pass through *)
  Definition level_fuel (lv : nat) : nat :=
    match lv with 0 => 6 | 1 => 4 | 2 => 2 | _ => 1 end.

  (** [X] spells the type [T] at level [lv] *)
  Definition parses (lv : nat) (X : list tok) (T : ftype) : Prop :=
    forall rest m, stops lv rest -> level_fuel lv + 8 * List.length X <= m ->
      p_level lv m (X ++ rest) = Some (T, rest).

  (* [parses] at a fixed level, in the form [rewrite] can use *)
  Lemma parses_type : forall X T, parses 0 X T -> forall rest m, stops 0 rest ->
    6 + 8 * List.length X <= m -> p_type env m (X ++ rest) = Some (T, rest).
  Proof. intros X T H. exact H. Qed.
  Lemma parses_term : forall X T, parses 2 X T -> forall rest m, stops 2 rest ->
    2 + 8 * List.length X <= m -> p_term env m (X ++ rest) = Some (T, rest).
  Proof. intros X T H. exact H. Qed.

  Lemma stops_weaken : forall a b rest, a <= b -> stops a rest -> stops b rest.
  Proof.
    intros a b [|[] r] Hab; cbn [stops okhead]; trivial; rewrite !Nat.leb_le; lia.
  Qed.

  (** lists with a separator in front of every further component *)
  Definition seps (s : tok) (Xs : list (list tok)) : list tok := flat_map (fun X => s :: X) Xs.

  Lemma sep_cons : forall s X Xs, sep s (X :: Xs) = X ++ seps s Xs.
  Proof.
    intros s X Xs. revert X. induction Xs as [|Y Ys IH]; intros X.
    - simpl. rewrite app_nil_r. reflexivity.
    - change (sep s (X :: Y :: Ys)) with (X ++ s :: sep s (Y :: Ys)). rewrite IH. reflexivity.
  Qed.

  Lemma seps_cons : forall s X Xs, seps s (X :: Xs) = s :: X ++ seps s Xs.
  Proof. reflexivity. Qed.

  Lemma stops_not : forall lv s rest,
    okhead lv s = false -> stops lv rest -> forall r1, rest <> s :: r1.
  Proof. intros lv s rest H Hs r1 ->. simpl in Hs. congruence. Qed.

  (** [p] is ParseSepList over level-[lv] elements and the separator [s] *)
  Definition sep_list (lv : nat) (p : nat -> list tok -> option (list ftype * list tok)) (s : tok) :=
    okhead lv s = true /\
    (forall n ts one r1, p_level lv n ts = Some (one, s :: r1) ->
       p (S n) ts = match p n r1 with Some (l, r2) => Some (one :: l, r2) | None => None end) /\
    (forall n ts one r, p_level lv n ts = Some (one, r) -> (forall r1, r <> s :: r1) ->
       p (S n) ts = Some ([one], r)) /\
    (forall n ts, p_level lv n ts = None -> p (S n) ts = None).

  Lemma sep_list_parses : forall lv p s, sep_list lv p s ->
    forall Xs Ts, Forall2 (parses lv) Xs Ts ->
    forall X T rest m, parses lv X T -> stops lv rest -> (forall r1, rest <> s :: r1) ->
      S (level_fuel lv) + 8 * (List.length X + List.length (seps s Xs)) <= m ->
      p m (X ++ seps s Xs ++ rest) = Some (T :: Ts, rest).
  Proof.
    intros lv p s (Hs & Hsep & Hend & _).
    induction 1 as [|Y U Ys Us HY HYs IH]; intros X T rest [|m] HX Hr Hne Hm; try lia.
    - simpl in *. apply Hend; [apply HX; [exact Hr|lia]|exact Hne].
    - rewrite seps_cons in *. simpl in Hm. rewrite app_length in Hm.
      simpl app. rewrite <- app_assoc.
      rewrite (Hsep m _ T (Y ++ seps s Ys ++ rest)), (IH Y U rest m HY Hr Hne); [reflexivity|lia|].
      apply HX; [exact Hs|lia].
  Qed.

  Lemma arrows_list : sep_list 1 (p_arrows env) TArrow.
  Proof.
    split; [reflexivity|]. split; [|split]; intros n ts; [intros one r1 H|intros one r H Hr|intros H];
      rewrite p_arrows_S; cbv [p_level] in H; rewrite H; trivial.
    destruct r as [|[] r]; trivial. destruct (Hr _ eq_refl).
  Qed.

  Lemma tlist_list : sep_list 0 (p_tlist env) TComma.
  Proof.
    split; [reflexivity|]. split; [|split]; intros n ts; [intros one r1 H|intros one r H Hr|intros H];
      rewrite p_tlist_S; cbv [p_level] in H; rewrite H; trivial.
    destruct r as [|[] r]; trivial. destruct (Hr _ eq_refl).
  Qed.

  Lemma more_nil : forall n rest,
    (forall r1, rest <> TAster :: r1) -> p_more env (S n) rest = Some ([], rest).
  Proof. intros n [|[] r] Hr; try reflexivity. destruct (Hr _ eq_refl). Qed.

  (* ParseList2 tests for the separator first: what follows a '*' is such a list *)
  Lemma more_list : sep_list 2 (fun n ts => p_more env n (TAster :: ts)) TAster.
  Proof.
    split; [reflexivity|]. split; [|split]; intros n ts; [intros one r1 H|intros one r H Hr|intros H];
      rewrite p_more_S; cbv [p_level] in H; rewrite H; trivial.
    destruct n; [discriminate H|]. rewrite more_nil by exact Hr. reflexivity.
  Qed.

  Lemma arrows_seps : forall Xs Ts,
    Forall2 (parses 1) Xs Ts ->
    forall X T rest m, parses 1 X T -> stops 0 rest ->
      5 + 8 * (List.length X + List.length (seps TArrow Xs)) <= m ->
      p_arrows env m (X ++ seps TArrow Xs ++ rest) = Some (T :: Ts, rest).
  Proof.
    intros Xs Ts HXs X T rest m HX Hs. apply (sep_list_parses 1 _ _ arrows_list); trivial.
    - apply (stops_weaken 0 1); [lia|exact Hs].
    - exact (stops_not 0 TArrow rest eq_refl Hs).
  Qed.


  Lemma lift32 : forall X T, parses 3 X T -> parses 2 X T.
  Proof.
    intros X T H rest [|m] Hs Hm; [simpl in Hm; lia|].
    specialize (H rest m Hs ltac:(simpl in *; lia)). cbv beta iota delta [p_level] in *.
    rewrite p_term_S. destruct (X ++ rest) as [|[] ?]; try exact H.
    (* p_atom refuses '[' *) destruct m; discriminate H.
  Qed.

  Lemma lift21 : forall X T, parses 2 X T -> parses 1 X T.
  Proof.
    intros X T H rest [|[|m]] Hs Hm; try (simpl in Hm; lia). simpl in Hm.
    cbv beta iota delta [p_level]. rewrite p_elem_S.
    rewrite (parses_term X T H rest _ (stops_weaken 1 2 rest ltac:(lia) Hs)) by lia.
    rewrite more_nil by exact (stops_not 1 TAster rest eq_refl Hs). reflexivity.
  Qed.

  Lemma lift10 : forall X T, parses 1 X T -> parses 0 X T.
  Proof.
    intros X T H rest [|m] Hs Hm; [simpl in Hm; lia|]. simpl in Hm.
    pose proof (arrows_seps [] [] (Forall2_nil _) X T rest m H Hs) as E. simpl in E.
    cbv beta iota delta [p_level]. rewrite p_type_S, E by lia. reflexivity.
  Qed.

  (* above level 3 there is only p_atom again *)
  Lemma lift : forall X T a b, b <= a -> parses a X T -> parses b X T.
  Proof.
    intros X T a b Hle. induction Hle as [|a _ IH]; intros H; [exact H|]. apply IH.
    destruct a as [|[|[|a]]]; [apply lift10|apply lift21|apply lift32|]; exact H.
  Qed.


  Lemma p_type_rp : forall m l, p_type env m (TRP :: l) = None.
  Proof. (* p_atom is four calls down *) intros [|[|[|[|[|m]]]]] l; reflexivity. Qed.

  Lemma paren_parses : forall X T, parses 0 X T -> parses 3 (TLP :: X ++ [TRP]) T.
  Proof.
    intros X T H rest [|m] Hs Hm; [simpl in Hm; lia|]. cbn [level_fuel List.length] in Hm. rewrite app_length in Hm.
    cbv beta iota delta [p_level]. simpl app. rewrite <- app_assoc. simpl app.
    pose proof (parses_type X T H (TRP :: rest) m eq_refl ltac:(simpl; lia)) as HT.
    rewrite p_atom_paren, HT. cbv beta iota.
    destruct X as [|[] X]; try reflexivity;
      (* no type begins with ')', so "(X)" is not taken for the unit type *)
      simpl app in HT; rewrite p_type_rp in HT; discriminate HT.
  Qed.

  Lemma parens_parses : forall k X T, parses 0 X T -> parses 3 (parens (S k) X) T.
  Proof.
    induction k as [|k IH]; intros X T H; apply paren_parses; [exact H|].
    apply (lift _ _ 3 0); [lia|]. apply IH, H.
  Qed.

  Lemma wrap_level : forall nl lv n X T,
    parses nl X T -> lv <= 3 -> (n = 0 -> lv <= nl) -> parses lv (parens n X) T.
  Proof.
    intros nl lv [|n] X T H Hlv Hn; [exact (lift _ _ _ _ (Hn eq_refl) H)|].
    apply (lift _ _ 3 lv Hlv), parens_parses, (lift _ _ nl 0); [lia|exact H].
  Qed.

  Lemma slice_parses : forall X T, parses 2 X T -> parses 2 (TLB :: TRB :: X) (FSlice T).
  Proof.
    intros X T H rest [|m] Hs Hm; [simpl in Hm; lia|]. simpl in Hm.
    cbv beta iota delta [p_level]. simpl app. rewrite p_term_S.
    rewrite (parses_term X T H rest m Hs) by lia. reflexivity.
  Qed.

  Lemma tuple_parses : forall Xs Ts,
    Forall2 (parses 2) Xs Ts -> 2 <= List.length Ts -> parses 1 (sep TAster Xs) (FTuple Ts).
  Proof.
    intros _ _ [|X T _ _ HX [|X2 T2 Xs Ts HX2 HXs]] Hlen rest [|m] Hs Hm;
      try (simpl in Hlen; lia); rewrite sep_cons, seps_cons in *; [simpl in Hm; lia|].
    rewrite app_length in Hm. simpl in Hm. rewrite app_length in Hm.
    cbv beta iota delta [p_level]. rewrite <- app_assoc, p_elem_S. simpl app. rewrite <- app_assoc.
    rewrite (parses_term X T HX (TAster :: _) m eq_refl) by lia.
    rewrite (sep_list_parses 2 _ _ more_list Xs Ts HXs X2 T2 rest m HX2); [reflexivity| | |cbn [level_fuel]; lia].
    - apply (stops_weaken 1 2); [lia|exact Hs].
    - exact (stops_not 1 TAster rest eq_refl Hs).
  Qed.

  Lemma func_parses : forall Xs Ts,
    Forall2 (parses 1) Xs Ts -> 2 <= List.length Ts -> parses 0 (sep TArrow Xs) (FFunc Ts).
  Proof.
    intros _ _ [|X T Xs Ts HX HXs] Hlen rest m Hs Hm; [inversion Hlen|]. rewrite sep_cons in *.
    rewrite app_length in Hm. simpl in Hm. destruct m as [|m]; [lia|].
    cbv beta iota delta [p_level]. rewrite <- app_assoc, p_type_S.
    rewrite (arrows_seps Xs Ts HXs X T rest m HX Hs) by lia.
    destruct Ts; [simpl in Hlen; lia|reflexivity].
  Qed.

  Lemma full_name_rest_toks : forall l R,
    match R with TDot :: _ => False | _ => True end ->
    full_name_rest (name_toks_rest l ++ R) = Some (l, R).
  Proof.
    induction l as [|s l IH]; intros R HR; simpl.
    - destruct R as [|[] R]; try reflexivity. contradiction.
    - rewrite (IH R HR). reflexivity.
  Qed.

  Lemma length_name_toks_rest : forall l, List.length (name_toks_rest l) = 2 * List.length l.
  Proof. induction l; simpl; lia. Qed.

  Lemma named_parses : forall parts Xs Ts,
    wf_nameb parts = true -> arity_ok parts (List.length Ts) = true -> Forall2 (parses 0) Xs Ts ->
    parses 3 (name_toks parts ++ match Xs with [] => [] | _ => TLt :: sep TComma Xs ++ [TGt] end)
             (FNamed parts Ts).
  Proof.
    intros [|s l] Xs Ts Hw Ha HXs rest [|m] Hs Hm; try discriminate Hw; [simpl in Hm; lia|].
    simpl in Hw. destruct (base_of s) eqn:Hb; [discriminate|].
    unfold TypeGrammar.arity_ok in Ha. destruct (env (join_dot (s :: l))) as [[g a]|] eqn:He; [|discriminate].
    apply Nat.eqb_eq in Ha. subst a.
    cbv beta iota delta [p_level]. simpl name_toks. simpl app. rewrite <- app_assoc, p_atom_id, Hb.
    destruct HXs as [|X T Xs Ts HX HXs].
    - rewrite full_name_rest_toks, He.
      + destruct rest as [|[] r]; try reflexivity; discriminate.
      + destruct rest as [|[] r]; try exact I. discriminate.
    - rewrite sep_cons in *. simpl app. rewrite <- !app_assoc. simpl app.
      rewrite full_name_rest_toks, He by exact I.
      cbn [level_fuel List.length] in Hm. rewrite !app_length in Hm. simpl in Hm. rewrite !app_length in Hm. simpl in Hm.
      rewrite (sep_list_parses 0 _ _ tlist_list Xs Ts HXs X T (TGt :: rest) m HX eq_refl) by (discriminate || (cbn [level_fuel]; lia)).
      rewrite Nat.eqb_refl. reflexivity.
  Qed.

  Lemma leaf_parses : forall t, is_leaf t = true -> parses 3 (print_at 0 t) t.
  Proof.
    intros t Ht rest [|m] Hs Hm; [simpl in Hm; lia|].
    cbv beta iota delta [p_level]. destruct t; try discriminate; reflexivity.
  Qed.


  Fixpoint dtype_ind' (Q : dtype -> Prop)
    (Hleaf : forall k t, Q (DLeaf k t))
    (Hslice : forall k e, Q e -> Q (DSlice k e))
    (Htuple : forall k l, Forall Q l -> Q (DTuple k l))
    (Hfunc : forall k l, Forall Q l -> Q (DFunc k l))
    (Hnamed : forall k parts l, Forall Q l -> Q (DNamed k parts l))
    (d : dtype) {struct d} : Q d :=
    let go := dtype_ind' Q Hleaf Hslice Htuple Hfunc Hnamed in
    let fix all (l : list dtype) : Forall Q l :=
        match l with
        | [] => Forall_nil Q
        | x :: r => Forall_cons x (go x) (all r)
        end in
    match d with
    | DLeaf k t => Hleaf k t
    | DSlice k e => Hslice k e (go e)
    | DTuple k l => Htuple k l (all l)
    | DFunc k l => Hfunc k l (all l)
    | DNamed k parts l => Hnamed k parts l (all l)
    end.

  Definition good (d : dtype) : Prop :=
    dwf d = true -> forall lv, lv <= 2 -> parses lv (dprint lv d) (erase d).

  Lemma good_list : forall lv l, lv <= 2 ->
    Forall good l -> forallb dwf l = true ->
    Forall2 (parses lv) (map (dprint lv) l) (map erase l).
  Proof.
    intros lv l Hlv HF. induction HF as [|d l Hd Hl IH]; simpl; intros Hw; constructor;
      apply andb_prop in Hw; [apply Hd|apply IH]; tauto.
  Qed.

  (* the parenthesis count in [dprint] of a tuple (a = 2) or a function type (a = 1) *)
  Lemma bare_level : forall a lv k,
    k + (if (a <=? lv) && (k =? 0) then 1 else 0) = 0 -> lv <= a - 1.
  Proof.
    intros a lv [|k] E; [|discriminate]. simpl in E.
    destruct (Nat.leb_spec a lv); [discriminate|lia].
  Qed.

  Theorem dparse_all : forall d, good d.
  Proof.
    apply dtype_ind'.
    - intros k t Hw lv Hlv. apply (wrap_level 3); [exact (leaf_parses t Hw)|lia|lia].
    - intros k e IH Hw lv Hlv. apply (wrap_level 2); [|lia|intros _; exact Hlv].
      exact (slice_parses _ _ (IH Hw 2 (le_n _))).
    - intros k l IH Hw lv Hlv. cbn [TypeGrammar.dwf] in Hw. apply andb_prop in Hw. destruct Hw as [Hlen Hw].
      apply (wrap_level 1); [|lia|apply (bare_level 2)].
      apply tuple_parses; [exact (good_list 2 l (le_n _) IH Hw)|].
      rewrite map_length. apply Nat.leb_le, Hlen.
    - intros k l IH Hw lv Hlv. cbn [TypeGrammar.dwf] in Hw. apply andb_prop in Hw. destruct Hw as [Hlen Hw].
      apply (wrap_level 0); [|lia|apply (bare_level 1)].
      apply func_parses; [exact (good_list 1 l ltac:(lia) IH Hw)|].
      rewrite map_length. apply Nat.leb_le, Hlen.
    - intros k parts l IH Hw lv Hlv. cbn [TypeGrammar.dwf] in Hw.
      apply andb_prop in Hw. destruct Hw as [Hw Hwl]. apply andb_prop in Hw. destruct Hw as [Hn Ha].
      apply (wrap_level 3); [|lia|lia].
      rewrite <- (map_length erase) in Ha.
      pose proof (named_parses parts _ _ Hn Ha (good_list 0 l (Nat.le_0_l _) IH Hwl)) as H.
      destruct l; exact H.
  Qed.

  (* the only sufficiency fact about [fuel_for]: it covers what [parses], that is (dparse_all) the
     spellings of well-formed types, not every token list *)
  Lemma parses_parse_type : forall X T rest,
    parses 0 X T -> stops 0 rest -> parse_type env (X ++ rest) = Some (T, rest).
  Proof.
    intros X T rest H Hs. apply (H rest); [exact Hs|].
    unfold fuel_for. rewrite app_length. simpl. lia.
  Qed.

  (** every spelling of a well-formed type — with any number of redundant parentheses around any
      of its nodes — parses to exactly that type, for types of any depth *)
  Theorem parse_dprint : forall d rest,
    dwf d = true -> stops 0 rest ->
    parse_type env (dprint 0 d ++ rest) = Some (erase d, rest).
  Proof.
    intros d rest Hw. apply parses_parse_type, dparse_all; [exact Hw|lia].
  Qed.


  Fixpoint ftype_ind' (Q : ftype -> Prop)
    (Hi : Q FInt) (Hs : Q FString) (Hb : Q FBool) (Hf : Q FFloat) (Ha : Q FAny) (Hu : Q FUnit)
    (Hslice : forall e, Q e -> Q (FSlice e))
    (Htuple : forall l, Forall Q l -> Q (FTuple l))
    (Hfunc : forall l, Forall Q l -> Q (FFunc l))
    (Hnamed : forall parts l, Forall Q l -> Q (FNamed parts l))
    (t : ftype) {struct t} : Q t :=
    let go := ftype_ind' Q Hi Hs Hb Hf Ha Hu Hslice Htuple Hfunc Hnamed in
    let fix all (l : list ftype) : Forall Q l :=
        match l with
        | [] => Forall_nil Q
        | x :: r => Forall_cons x (go x) (all r)
        end in
    match t with
    | FInt => Hi | FString => Hs | FBool => Hb | FFloat => Hf | FAny => Ha | FUnit => Hu
    | FSlice e => Hslice e (go e)
    | FTuple l => Htuple l (all l)
    | FFunc l => Hfunc l (all l)
    | FNamed parts l => Hnamed parts l (all l)
    end.

  Lemma forallb_map_F : forall (A B : Type) (f : A -> B) (p : B -> bool) (q : A -> bool) l,
    Forall (fun x => p (f x) = q x) l -> forallb p (map f l) = forallb q l.
  Proof. induction 1; simpl; congruence. Qed.

  Lemma erase_plain : forall t, erase (plain t) = t.
  Proof.
    apply ftype_ind'; try reflexivity; simpl; intros; [congruence| | |];
      rewrite map_map, (map_ext_Forall _ (fun x => x)), map_id by assumption; reflexivity.
  Qed.

  Lemma dwf_plain : forall t, dwf (plain t) = wf t.
  Proof.
    apply ftype_ind'; try reflexivity; simpl; intros; rewrite ?map_length, ?(forallb_map_F _ _ _ _ wf);
      trivial.
  Qed.

  Lemma dprint_plain : forall t lv, dprint lv (plain t) = print_at lv t.
  Proof.
    apply (ftype_ind' (fun t => forall lv, dprint lv (plain t) = print_at lv t)); try reflexivity;
      [intros e IH|intros l IH|intros l IH|intros parts l IH]; intros lv;
      cbn [plain dprint print_at]; rewrite ?IH, ?map_map.
    - reflexivity.
    - rewrite (map_ext_Forall _ (print_at 2)) by (revert IH; apply Forall_impl; auto).
      destruct (2 <=? lv); reflexivity.
    - rewrite (map_ext_Forall _ (print_at 1)) by (revert IH; apply Forall_impl; auto).
      destruct (1 <=? lv); reflexivity.
    - rewrite (map_ext_Forall _ (print_at 0)) by (revert IH; apply Forall_impl; auto).
      destruct l; reflexivity.
  Qed.

  Lemma wf_erase_list : forall b l, Forall (fun d => dwf d = true -> wf (erase d) = true) l ->
    b && forallb dwf l = true -> b && forallb wf (map erase l) = true.
  Proof.
    intros b l IH H. apply andb_prop in H. destruct H as [-> H]. simpl. revert H.
    induction IH as [|d l Hd _ IHl]; simpl; [trivial|]. intros H. apply andb_prop in H.
    rewrite Hd, IHl; tauto.
  Qed.

  Lemma wf_erase : forall d, dwf d = true -> wf (erase d) = true.
  Proof.
    induction d using dtype_ind'; cbn [TypeGrammar.dwf erase TypeGrammar.wf]; intros; rewrite ?map_length;
      auto using wf_erase_list.
    destruct t; trivial; discriminate.
  Qed.

  Lemma parse_print_as : forall t rest ts,
    wf t = true -> stops 0 rest -> print_type t ++ rest = ts -> parse_type env ts = Some (t, rest).
  Proof.
    intros t rest ts Hw Hs <-. unfold print_type. rewrite <- dprint_plain. rewrite <- (erase_plain t) at 2.
    apply parse_dprint; [rewrite dwf_plain|]; assumption.
  Qed.

  (** C15 round trip: printing with minimal parentheses then parsing is the identity, at any depth *)
  Theorem parse_print : forall t rest,
    wf t = true -> stops 0 rest ->
    parse_type env (print_type t ++ rest) = Some (t, rest).
  Proof. intros t rest Hw Hs. exact (parse_print_as t rest _ Hw Hs eq_refl). Qed.

  (** parentheses only group: a spelling with redundant parentheses parses to the same type as the
      minimal spelling of the underlying type *)
  Theorem redundant_parens_ignored : forall d rest,
    dwf d = true -> stops 0 rest ->
    parse_type env (dprint 0 d ++ rest) = parse_type env (print_type (erase d) ++ rest).
  Proof.
    intros d rest Hw Hs. rewrite parse_dprint by assumption.
    rewrite parse_print by (try apply wf_erase; assumption). reflexivity.
  Qed.

  Corollary outer_parens_ignored : forall t k rest,
    wf t = true -> stops 0 rest ->
    parse_type env (parens k (print_type t) ++ rest) = Some (t, rest).
  Proof.
    intros t k rest Hw. apply parses_parse_type, (wrap_level 0); [|lia|lia].
    unfold print_type. rewrite <- dprint_plain. rewrite <- (erase_plain t) at 2.
    apply dparse_all; [rewrite dwf_plain; exact Hw|lia].
  Qed.
End Proofs.


Theorem slice_tighter_than_tuple : forall env a b rest,
  wf env a = true -> wf env b = true -> stops 0 rest ->
  (* []a*b is ([]a)*b *)
  parse_type env (TLB :: TRB :: print_at 2 a ++ TAster :: print_at 2 b ++ rest)
    = Some (FTuple [FSlice a; b], rest) /\
  (* a*[]b is a*([]b) *)
  parse_type env (print_at 2 a ++ TAster :: TLB :: TRB :: print_at 2 b ++ rest)
    = Some (FTuple [a; FSlice b], rest) /\
  (* a slice of tuples needs the parentheses: [](a*b) *)
  parse_type env (TLB :: TRB :: TLP :: print_at 2 a ++ TAster :: print_at 2 b ++ TRP :: rest)
    = Some (FSlice (FTuple [a; b]), rest).
Proof.
  intros env a b rest Ha Hb Hs.
  repeat split; apply parse_print_as; trivial; unfold print_type; simpl;
    repeat (rewrite <- app_assoc; simpl); rewrite ?Ha, ?Hb; reflexivity.
Qed.

Theorem arrow_flat_and_nested : forall env a b c0 rest,
  wf env a = true -> wf env b = true -> wf env c0 = true -> stops 0 rest ->
  (* a->b->c is ONE function type with the targets a, b, c (the last is the result) *)
  parse_type env (print_at 1 a ++ TArrow :: print_at 1 b ++ TArrow :: print_at 1 c0 ++ rest)
    = Some (FFunc [a; b; c0], rest) /\
  (* a function returning a function is written with parentheses *)
  parse_type env (print_at 1 a ++ TArrow :: TLP :: print_at 1 b ++ TArrow :: print_at 1 c0 ++ TRP :: rest)
    = Some (FFunc [a; FFunc [b; c0]], rest) /\
  parse_type env (TLP :: print_at 1 a ++ TArrow :: print_at 1 b ++ TRP :: TArrow :: print_at 1 c0 ++ rest)
    = Some (FFunc [FFunc [a; b]; c0], rest).
Proof.
  intros env a b c0 rest Ha Hb Hc Hs.
  repeat split; apply parse_print_as; trivial; unfold print_type; simpl;
    repeat (rewrite <- app_assoc; simpl); rewrite ?Ha, ?Hb, ?Hc; reflexivity.
Qed.


Lemma full_name_rest_no_lp : forall r l r4,
  full_name_rest r = Some (l, r4) -> no_lp r -> no_lp r4.
Proof.
  fix IH 1. intros [|[] r] l r4 H Hn; try (injection H as _ <-; exact Hn).
  destruct r as [|[] r]; try discriminate H. simpl in H.
  destruct (full_name_rest r) as [[l' r3]|] eqn:E; [|discriminate].
  injection H as _ <-. exact (IH r l' r3 E (Forall_inv_tail (Forall_inv_tail Hn))).
Qed.

Section Sound.
  Variable env : string -> option (string * nat).

  (** [paren_free] unfolds to [pf 2] of a slice's element and of a tuple's components, [pf 1] of a
      function type's components, [pf 0] of type arguments: one predicate for all seven parsers *)
  Definition pf (lv : nat) (t : ftype) : bool := (lv <=? nl t) && paren_free t.

  Lemma pf_weaken : forall a b t, a <= b -> pf b t = true -> pf a t = true.
  Proof.
    unfold pf. intros a b t Hab H. apply andb_prop in H. destruct H as [H ->].
    apply Nat.leb_le in H. rewrite andb_true_r. apply Nat.leb_le. lia.
  Qed.

  Lemma base_of_atom : forall s b, base_of s = Some b -> pf 3 b = true.
  Proof.
    unfold base_of. intros s b H.
    repeat (destruct (String.eqb s _); [injection H as <-; reflexivity|]). discriminate H.
  Qed.

  Definition sound {A} (p : list tok -> option (A * list tok)) (Q : A -> bool) : Prop :=
    forall ts a r, no_lp ts -> p ts = Some (a, r) -> Q a = true /\ no_lp r.

  Lemma starts_dec : forall (s : tok) r, (exists r1, r = s :: r1) \/ forall r1, r <> s :: r1.
  Proof.
    intros s [|t r]; [right; discriminate|].
    assert ({t = s} + {t <> s}) as [->|N] by (decide equality; apply string_dec); [eauto|].
    right. congruence.
  Qed.

  Lemma sep_list_sound : forall lv p s Q n, sep_list env lv p s ->
    sound (p_level env lv n) Q -> sound (p n) (forallb Q) -> sound (p (S n)) (forallb Q).
  Proof.
    intros lv p s Q n (_ & Hsep & Hend & Hnone) IHq IHp ts l r Hn H.
    destruct (p_level env lv n ts) as [[one r0]|] eqn:E; [|rewrite (Hnone _ _ E) in H; discriminate].
    destruct (IHq ts one r0 Hn E) as [H1 Hr0].
    destruct (starts_dec s r0) as [[r1 ->]|D].
    - rewrite (Hsep _ _ _ _ E) in H. destruct (p n r1) as [[l2 r2]|] eqn:E2; [|discriminate].
      injection H as <- <-. destruct (IHp r1 l2 r2 (Forall_inv_tail Hr0) E2) as [H2 Hr].
      simpl. rewrite H1, H2. auto.
    - rewrite (Hend _ _ _ _ E D) in H. injection H as <- <-. simpl. rewrite H1. auto.
  Qed.

  Lemma sound_all : forall n,
    sound (p_type env n) (pf 0) /\ sound (p_arrows env n) (forallb (pf 1)) /\
    sound (p_elem env n) (pf 1) /\ sound (p_more env n) (forallb (pf 2)) /\
    sound (p_term env n) (pf 2) /\ sound (p_atom env n) (pf 3) /\
    sound (p_tlist env n) (forallb (pf 0)).
  Proof.
    induction n as [|n (IHty & IHar & IHel & IHmo & IHte & IHat & IHtl)].
    { repeat split; discriminate. }
    repeat apply conj; intros ts x r Hn H.
    - rewrite p_type_S in H.
      destruct (p_arrows env n ts) as [[l r0]|] eqn:E; [|discriminate].
      destruct (IHar ts l r0 Hn E) as [Hl Hr].
      destruct l as [|t1 [|t2 l]]; injection H as <- <-; split; trivial.
      simpl in Hl. rewrite andb_true_r in Hl. exact (pf_weaken 0 1 _ (Nat.le_0_1) Hl).
    - exact (sep_list_sound 1 _ _ _ n (arrows_list env) IHel IHar ts x r Hn H).
    - rewrite p_elem_S in H.
      destruct (p_term env n ts) as [[one r0]|] eqn:E; [|discriminate].
      destruct (IHte ts one r0 Hn E) as [H1 Hr0].
      destruct (p_more env n r0) as [[l r2]|] eqn:E2; [|discriminate].
      destruct (IHmo r0 l r2 Hr0 E2) as [H2 Hr2].
      destruct l as [|t l]; injection H as <- <-; split; trivial.
      + exact (pf_weaken 1 2 _ (le_S _ _ (le_n _)) H1).
      + change (pf 2 one && forallb (pf 2) (t :: l) = true). rewrite H1. exact H2.
    - destruct (starts_dec TAster ts) as [[r1 ->]|D].
      + apply (sep_list_sound 2 _ _ _ n (more_list env) IHte) with (ts := r1);
          [|exact (Forall_inv_tail Hn)|exact H].
        intros ts' a r' Hn'. apply IHmo. constructor; [discriminate|exact Hn'].
      + rewrite (more_nil env n ts D) in H. injection H as <- <-. auto.
    - assert (p_atom env n ts = Some (x, r) -> pf 2 x = true /\ no_lp r) as Hatom.
      { intros E. destruct (IHat ts x r Hn E) as [H3 Hr]. split; [|exact Hr].
        exact (pf_weaken 2 3 _ (le_S _ _ (le_n _)) H3). }
      rewrite p_term_S in H. destruct ts as [|[] r0]; try exact (Hatom H).
      destruct r0 as [|[] r1]; try discriminate.
      destruct (p_term env n r1) as [[t2 r2]|] eqn:E; [|discriminate].
      injection H as <- <-. exact (IHte r1 t2 r2 (Forall_inv_tail (Forall_inv_tail Hn)) E).
    - destruct ts as [|[] r0]; try discriminate H.
      + destruct (Forall_inv Hn eq_refl).
      + rewrite p_atom_id in H. apply Forall_inv_tail in Hn. destruct (base_of s) as [b0|] eqn:Eb.
        * injection H as <- <-. exact (conj (base_of_atom s b0 Eb) Hn).
        * destruct (full_name_rest r0) as [[l r4]|] eqn:Ef; [|discriminate].
          pose proof (full_name_rest_no_lp r0 l r4 Ef Hn) as Hr4.
          destruct (env (join_dot (s :: l))) as [[g arity]|]; [|discriminate].
          assert ((if arity =? 0 then Some (FNamed (s :: l) [], r4) else None) = Some (x, r) ->
                  pf 3 x = true /\ no_lp r) as Hzero.
          { destruct (arity =? 0); [|discriminate]. intros E'. injection E' as <- <-. split; trivial. }
          destruct r4 as [|[] r5]; try exact (Hzero H).
          destruct (p_tlist env n r5) as [[args r6]|] eqn:Et; [|discriminate].
          destruct (IHtl r5 args r6 (Forall_inv_tail Hr4) Et) as [Ha Hr6].
          destruct r6 as [|[] r7]; try discriminate.
          destruct (Datatypes.length args =? arity); [|discriminate]. injection H as <- <-.
          split; [exact Ha|exact (Forall_inv_tail Hr6)].
    - exact (sep_list_sound 0 _ _ _ n (tlist_list env) IHty IHtl ts x r Hn H).
  Qed.

  (** Whatever the parser accepts from a parenthesis-free token list nests arrows, tuples and slices
      only in the one way the precedence allows: no function type inside a function type, no function
      or tuple type inside a tuple or slice.  So arrows (and tuples) nest only through parentheses. *)
  Theorem arrow_nests_only_through_parens : forall ts t r,
    no_lp ts -> parse_type env ts = Some (t, r) -> paren_free t = true.
  Proof.
    intros ts t r Hn H. exact (proj1 (proj1 (sound_all _) ts t r Hn H)).
  Qed.
End Sound.


Local Open Scope string_scope.

Lemma append_empty_r : forall s : string, s ++ "" = s.
Proof. induction s as [|ch s IH]; simpl; [reflexivity|rewrite IH; reflexivity]. Qed.

Lemma render_func : forall env args r,
  render env (FFunc (args ++ [r])%list) =
  "func (" ++ String.concat "," (map (render env) args) ++ ")" ++
  (if is_unit r then "" else " " ++ render env r).
Proof.
  intros env args r. cbn [render]. rewrite map_app. simpl map.
  rewrite removelast_last, !last_last. reflexivity.
Qed.

Theorem render_by_cases : forall env,
  render env FInt = "int" /\ render env FString = "string" /\ render env FBool = "bool" /\
  render env FAny = "any" /\ render env FFloat = "float64" /\ render env FUnit = "" /\
  (forall e, render env (FSlice e) = "[]" ++ render env e) /\
  (forall a b, render env (FTuple [a; b]) =
               "frt.Tuple2[" ++ (render env a ++ ", " ++ render env b) ++ "]") /\
  (forall a b c0, render env (FTuple [a; b; c0]) =
               "frt.Tuple3[" ++ (render env a ++ ", " ++ render env b ++ ", " ++ render env c0) ++ "]") /\
  (forall l, render env (FTuple l) =
             "frt.Tuple" ++ dec (List.length l) ++ "[" ++ String.concat ", " (map (render env) l) ++ "]") /\
  (* A -> B -> R  is  func (A,B) R ; a unit result is no result *)
  (forall args r, render env (FFunc (args ++ [r])%list) =
     "func (" ++ String.concat "," (map (render env) args) ++ ")" ++
     (if is_unit r then "" else " " ++ render env r)) /\
  (forall a b r, is_unit r = false -> render env (FFunc [a; b; r]) =
     "func (" ++ (render env a ++ "," ++ render env b) ++ ")" ++ " " ++ render env r) /\
  (forall a, render env (FFunc [a; FUnit]) = "func (" ++ render env a ++ ")" ++ "") /\
  (forall r, is_unit r = false -> render env (FFunc [FUnit; r]) = "func ()" ++ " " ++ render env r) /\
  (* Name<T, U> is Name[T, U] under the Go name of the type (package-qualified for external types) *)
  (forall parts, render env (FNamed parts []) = go_name env parts) /\
  (forall parts a l, render env (FNamed parts (a :: l)) =
     go_name env parts ++ "[" ++ String.concat ", " (map (render env) (a :: l)) ++ "]").
Proof.
  intros env. repeat split; try reflexivity.
  - intros args r. apply render_func.
  - intros a b r Hr. change [a; b; r] with (([a; b] ++ [r])%list). rewrite render_func, Hr. reflexivity.
  - intros r Hr. change [FUnit; r] with (([FUnit] ++ [r])%list). rewrite render_func, Hr. reflexivity.
  - intros parts. cbn [render]. apply append_empty_r.
Qed.

(** render is NOT injective without lexical conditions on the registered names: a user type may be
    called like a Go predeclared type, an external package may be called frt.  (Injectivity on
    unit-free types under such conditions is checked dynamically by the harness, not proved.) *)
Theorem render_injective_needs_name_conditions :
  exists (env : string -> option (string * nat)) t1 t2,
    wf env t1 = true /\ wf env t2 = true /\ t1 <> t2 /\ render env t1 = render env t2.
Proof.
  exists (fun n => if String.eqb n "float64" then Some ("float64", 0) else None),
         (FNamed ["float64"] []), FFloat.
  repeat split; try reflexivity. discriminate.
Qed.
