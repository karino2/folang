(** C11 — proofs about Front/StrLit.v: the three layers compose to the denotation. *)
From Coq Require Import List String Ascii NArith ZArith Bool Lia.
From FoVerif Require Import Front.StrLit.
Import ListNotations.
Local Open Scope char_scope.

Lemma eqb_false_neq : forall a c : ascii, Ascii.eqb a c = false -> a <> c.
Proof. intros a c. apply Ascii.eqb_neq. Qed.

Definition identc (c : ascii) : bool := is_alpha_ c || is_digit c.

(** an identifier character is none of the special characters *)
Lemma identc_not : forall c x,
  identc c = true -> identc x = false -> Ascii.eqb c x = false.
Proof.
  intros c x Hc Hx. destruct (Ascii.eqb_spec c x) as [E|E]; [|reflexivity].
  subst. rewrite Hc in Hx. discriminate.
Qed.

Lemma valid_ident_chars : forall n, valid_ident n = true -> forallb identc n = true.
Proof.
  intros [|c r] H; [discriminate|]. simpl in *.
  apply andb_prop in H. destruct H as [H1 H2]. unfold identc at 1. rewrite H1. exact H2.
Qed.

Lemma forallb_app' : forall (A : Type) (p : A -> bool) x y,
  forallb p x = true -> forallb p y = true -> forallb p (x ++ y) = true.
Proof. intros A p x y Hx Hy. rewrite forallb_app, Hx, Hy. reflexivity. Qed.

Lemma ok_char_inv : forall f c, ok_char f c = true ->
  Ascii.eqb c NUL = false /\ Ascii.eqb c (close f) = false /\
  (is_raw f = false -> Ascii.eqb c BS = false) /\ (is_interp f = true -> Ascii.eqb c LBR = false).
Proof.
  intros f c H. unfold ok_char in H. apply andb_prop in H. destruct H as [Hn H].
  apply negb_true_iff in Hn.
  destruct f; cbn in *; apply negb_true_iff in H; rewrite ?orb_false_iff in H; intuition discriminate.
Qed.

Inductive okp (f : form) (e : env) : piece -> Prop :=
| OkChar c : ok_char f c = true -> okp f e (PChar c)
| OkEsc c : is_raw f = false -> c = "n" \/ c = "t" \/ c = BS \/ c = DQ -> okp f e (PEsc c)
| OkBrace c : f = IStr -> c = LBR \/ c = RBR -> okp f e (PBrace c)
| OkHole n v : is_interp f = true -> valid_ident n = true -> lookup e n = Some v -> okp f e (PHole n)
| OkBom : okp f e PBom.

Lemma ok_piece_okp : forall f e p, ok_piece f e p = true -> okp f e p.
Proof.
  intros f e [c|c|c|n|] H; cbn in H.
  - now constructor.
  - apply andb_prop in H. destruct H as [Hr He]. apply negb_true_iff in Hr.
    constructor; [exact Hr|]. unfold is_esc_letter in He.
    repeat (apply orb_prop in He; destruct He as [He|He]); apply Ascii.eqb_eq in He; auto 6.
  - destruct f; try discriminate. constructor; [reflexivity|].
    apply orb_prop in H. destruct H as [H|H]; apply Ascii.eqb_eq in H; auto.
  - apply andb_prop in H. destruct H as [H Hl]. apply andb_prop in H. destruct H as [Hi Hv].
    destruct (lookup e n) as [v|] eqn:E; [|discriminate].
    apply (OkHole f e n v); assumption.
  - constructor.
Qed.

Lemma ok_pieces : forall f e ps, forallb (ok_piece f e) ps = true -> Forall (okp f e) ps.
Proof.
  intros f e ps H. apply Forall_forall. intros p Hp.
  exact (ok_piece_okp f e p (proj1 (forallb_forall _ _) H p Hp)).
Qed.

(** what scanStringLiteralToken writes for one ordinary byte of a quoted body *)
Definition esc_str (c : ascii) : bytes := if Ascii.eqb c LF then [BS; "n"] else [c].
Definition esc (f : form) (c : ascii) : bytes := if is_raw f then esc_raw c else esc_str c.

(** an escape is copied (only the quoted forms have any); a hole's text needs no escaping *)
Definition lit1 (f : form) (p : piece) : bytes :=
  match p with
  | PChar c => esc f c
  | PBom => BOM_ESC
  | _ => spell1 p
  end.

Definition fmt1 (f : form) (p : piece) : bytes :=
  match p with
  | PChar c => if Ascii.eqb c PCT then [PCT; PCT] else esc f c
  | PBrace c => [c]
  | PHole _ => [PCT; "s"]
  | _ => lit1 f p
  end.

Definition uq1 (p : piece) : bytes :=
  match p with
  | PChar c => if Ascii.eqb c PCT then [PCT; PCT] else [c]
  | PEsc c => [esc_meaning c]
  | PBrace c => [c]
  | PHole _ => [PCT; "s"]
  | PBom => BOM
  end.

Definition holes (ps : list piece) : list bytes :=
  flat_map (fun p => match p with PHole n => [n] | _ => [] end) ps.

(** the next two bytes are the rest of a byte order mark *)
Definition starts_bbbf (l : bytes) : bool :=
  match l with c2 :: c3 :: _ => Ascii.eqb c2 BB && Ascii.eqb c3 BF | _ => false end.

(** scanners and lexer look two bytes ahead for a byte order mark before they take a byte as ordinary *)
Lemma no_bom_ahead : forall (A : Type) c s (bom_case : bytes -> A) (plain : A),
  Ascii.eqb c EF && starts_bbbf s = false ->
  match s with
  | c2 :: c3 :: r' => if Ascii.eqb c EF && Ascii.eqb c2 BB && Ascii.eqb c3 BF then bom_case r' else plain
  | _ => plain
  end = plain.
Proof.
  intros A c s bom_case plain H. destruct s as [|c2 [|c3 r']]; try reflexivity.
  simpl in H. rewrite <- andb_assoc, H. reflexivity.
Qed.

Lemma nosplit_tail : forall p ps, nosplit (p :: ps) = true -> nosplit ps = true.
Proof. intros p ps H. cbn [nosplit] in H. apply andb_prop in H. tauto. Qed.

(** only an ordinary character spells a text that begins with the second or third byte of a byte order
    mark: every other piece begins with a backslash, an opening brace or EF *)
Lemma spell1_head : forall p l x r,
  x = BB \/ x = BF -> spell1 p ++ l = x :: r -> p = PChar x /\ l = r.
Proof. intros [c|c|c|n|] l x r Hx H; inversion H; subst; auto; destruct Hx; discriminate. Qed.

Definition safe_head (tail : bytes) : bool :=
  match tail with [] => true | c :: _ => negb (Ascii.eqb c BB) && negb (Ascii.eqb c BF) end.

(** an ordinary character that is the first byte of a byte order mark is not followed by the other two *)
Lemma nosplit_lookahead : forall c ps tail,
  nosplit (PChar c :: ps) = true -> safe_head tail = true ->
  Ascii.eqb c EF && starts_bbbf (spell ps ++ tail) = false.
Proof.
  intros c ps tail H Ht. destruct (Ascii.eqb_spec c EF) as [->|]; [|reflexivity].
  destruct (starts_bbbf (spell ps ++ tail)) eqn:E; [exfalso|reflexivity].
  destruct (spell ps ++ tail) as [|x [|y r]] eqn:El; try discriminate.
  apply andb_prop in E. destruct E as [Ex Ey]. apply Ascii.eqb_eq in Ex, Ey. subst x y.
  (* the two bytes come from two ordinary characters, which [nosplit] rules out, or from [tail] *)
  unfold spell in El.
  destruct ps as [|p1 ps]; [cbn in El; subst tail; discriminate|].
  cbn [flat_map] in El. rewrite <- app_assoc in El. apply spell1_head in El; [|auto]. destruct El as [-> El].
  destruct ps as [|p2 ps]; [cbn in El; subst tail; discriminate|].
  cbn [flat_map] in El. rewrite <- app_assoc in El. apply spell1_head in El; [|auto]. destruct El as [-> _].
  discriminate.
Qed.

Definition pre (v : bytes) (o : option (bytes * bytes)) : option (bytes * bytes) :=
  match o with Some (w, r) => Some (v ++ w, r) | None => None end.

Lemma scan_char : forall f c s,
  Ascii.eqb c (close f) = false -> (is_raw f = false -> Ascii.eqb c BS = false) ->
  Ascii.eqb c EF && starts_bbbf s = false ->
  scan f (c :: s) = pre (esc f c) (scan f s).
Proof.
  unfold scan, close, esc. intros f c s H1 H2 H3. destruct (is_raw f).
  - cbn [scan_raw]. rewrite H1. exact (no_bom_ahead _ c s _ _ H3).
  - cbn [scan_string]. rewrite H1, H2 by reflexivity. unfold esc_str.
    destruct (Ascii.eqb c LF); [reflexivity|]. exact (no_bom_ahead _ c s _ _ H3).
Qed.

(** bytes that every scanner copies, whatever follows *)
Definition plainc (c : ascii) : bool :=
  negb (Ascii.eqb c DQ || Ascii.eqb c BQ || Ascii.eqb c BS || Ascii.eqb c LF || Ascii.eqb c EF).

Lemma scan_plain : forall f x s,
  forallb plainc x = true -> scan f (x ++ s) = pre x (scan f s).
Proof.
  induction x as [|c x IH]; intros s H.
  - simpl app. destruct (scan f s) as [[v r]|]; reflexivity.
  - simpl in H. apply andb_prop in H. destruct H as [Hc Hx].
    apply negb_true_iff in Hc. rewrite !orb_false_iff in Hc. destruct Hc as ((((H1 & H2) & H3) & H4) & H5).
    simpl app. rewrite scan_char, (IH s Hx).
    + unfold esc, esc_raw, esc_str. rewrite H1, H3, H4.
      destruct (is_raw f), (scan f s) as [[v r]|]; reflexivity.
    + unfold close. destruct (is_raw f); assumption.
    + intros _. exact H3.
    + rewrite H5. reflexivity.
Qed.

Lemma ident_plainc : forall n, forallb identc n = true -> forallb plainc (LBR :: n ++ [RBR]) = true.
Proof.
  intros n H. cbn [forallb]. rewrite forallb_app. cbn. rewrite andb_true_r.
  induction n as [|c n IH]; [reflexivity|]. simpl in *.
  apply andb_prop in H. destruct H as [H1 H2]. rewrite (IH H2), andb_true_r.
  unfold plainc.
  rewrite !(identc_not c _ H1) by reflexivity. reflexivity.
Qed.

Lemma scan_piece : forall f e p s,
  okp f e p -> (forall c, p = PChar c -> Ascii.eqb c EF && starts_bbbf s = false) ->
  scan f (spell1 p ++ s) = pre (lit1 f p) (scan f s).
Proof.
  intros f e p s Hp Hla. destruct Hp as [c Hc|c Hr _|c -> _|n v _ Hn _|].
  - destruct (ok_char_inv _ _ Hc) as (_ & Hcl & Hbs & _). apply scan_char; auto.
  - unfold scan. rewrite Hr. reflexivity.
  - reflexivity.
  - apply scan_plain, ident_plainc, valid_ident_chars, Hn.
  - unfold scan. destruct (is_raw f); reflexivity.
Qed.

Theorem scan_spell : forall f e ps rest,
  forallb (ok_piece f e) ps = true -> nosplit ps = true ->
  scan f (spell ps ++ close f :: rest) = Some (flat_map (lit1 f) ps, rest).
Proof.
  intros f e ps rest H. apply ok_pieces in H.
  induction H as [|p ps Hp _ IH]; intros Hns; [destruct f; reflexivity|].
  unfold spell in *. cbn [flat_map]. rewrite <- app_assoc, (scan_piece f e _ _ Hp).
  - rewrite (IH (nosplit_tail _ _ Hns)). reflexivity.
  - intros c ->. apply (nosplit_lookahead c ps _ Hns). destruct f; reflexivity.
Qed.

Lemma psi_hole : forall n acc s,
  forallb identc n = true ->
  psi (n ++ RBR :: s) (Some acc) =
  match psi s None with
  | Some (f, vs) => Some (PCT :: "s" :: f, (rev acc ++ n) :: vs)
  | None => None
  end.
Proof.
  induction n as [|c n IH]; intros acc s H; simpl.
  - rewrite app_nil_r. reflexivity.
  - simpl in H. apply andb_prop in H. destruct H as [H1 H2].
    rewrite (identc_not c RBR H1 eq_refl).
    rewrite (IH (c :: acc) s H2). simpl. rewrite <- app_assoc. reflexivity.
Qed.

Lemma psi_piece : forall f e p s fm vs,
  is_interp f = true -> okp f e p ->
  psi s None = Some (fm, vs) ->
  psi (lit1 f p ++ s) None =
  Some (fmt1 f p ++ fm, match p with PHole n => n :: vs | _ => vs end).
Proof.
  intros f e p s fm vs Hi Hp Hs.
  destruct Hp as [c Hc | c _ [-> | [-> | [-> | ->]]] | c _ [-> | ->] | n v _ Hn _ | ];
    try (cbn; rewrite Hs; reflexivity).
  - (* an ordinary byte: the scanner's escapes pass through, a percent sign is doubled *)
    destruct (ok_char_inv _ _ Hc) as (_ & _ & Hbs & Hlb). specialize (Hlb Hi).
    cbn [lit1 fmt1]. unfold esc, esc_raw, esc_str. destruct (is_raw f).
    + destruct (Ascii.eqb c BS) eqn:E1; [apply Ascii.eqb_eq in E1; subst c; cbn; rewrite Hs; reflexivity|].
      destruct (Ascii.eqb c DQ) eqn:E2; [apply Ascii.eqb_eq in E2; subst c; cbn; rewrite Hs; reflexivity|].
      destruct (Ascii.eqb c LF) eqn:E3; [apply Ascii.eqb_eq in E3; subst c; cbn; rewrite Hs; reflexivity|].
      cbn. rewrite E1, Hlb, Hs. destruct (Ascii.eqb c PCT); reflexivity.
    + destruct (Ascii.eqb c LF) eqn:E3; [apply Ascii.eqb_eq in E3; subst c; cbn; rewrite Hs; reflexivity|].
      cbn. rewrite Hbs, Hlb, Hs by reflexivity. destruct (Ascii.eqb c PCT); reflexivity.
  - cbn. rewrite <- app_assoc. cbn. rewrite psi_hole, Hs by exact (valid_ident_chars n Hn). reflexivity.
Qed.

Theorem psi_spell : forall f e ps,
  is_interp f = true -> forallb (ok_piece f e) ps = true ->
  parse_sinterp (flat_map (lit1 f) ps) = Some (flat_map (fmt1 f) ps, holes ps).
Proof.
  intros f e ps Hi H. apply ok_pieces in H. unfold parse_sinterp.
  induction H as [|p ps Hp _ IH]; [reflexivity|].
  cbn [flat_map]. rewrite (psi_piece f e p _ _ _ Hi Hp IH). destruct p; reflexivity.
Qed.

Lemma unq_plain : forall c s,
  Ascii.eqb c BS = false -> Ascii.eqb c DQ = false -> Ascii.eqb c LF = false ->
  Ascii.eqb c NUL = false ->
  go_unquote (c :: s) = uq_cons c (go_unquote s).
Proof. intros c s H1 H2 H3 H4. simpl. rewrite H1, H2, H3, H4. reflexivity. Qed.

Lemma uq_cons_app : forall c r, uq_cons c r = uq_app [c] r.
Proof. intros c [v| |]; reflexivity. Qed.

Lemma uq_app_app : forall x y r, uq_app x (uq_app y r) = uq_app (x ++ y) r.
Proof. intros x y [v| |]; simpl; [rewrite app_assoc|..]; reflexivity. Qed.

(** the Go literal written for an ordinary character of a form unquotes to that character: the raw
    scanner has escaped backslash and quote, a quoted body cannot hold them bare *)
Lemma unq_char : forall f c s,
  ok_char f c = true -> go_unquote (esc f c ++ s) = uq_cons c (go_unquote s).
Proof.
  intros f c s H. destruct (ok_char_inv _ _ H) as (Hn & Hcl & Hbs & _).
  unfold esc, esc_raw, esc_str, close in *. destruct (is_raw f).
  - destruct (Ascii.eqb c BS) eqn:E1; [apply Ascii.eqb_eq in E1; subst c; reflexivity|].
    destruct (Ascii.eqb c DQ) eqn:E2; [apply Ascii.eqb_eq in E2; subst c; reflexivity|].
    destruct (Ascii.eqb c LF) eqn:E3; [apply Ascii.eqb_eq in E3; subst c; reflexivity|].
    apply unq_plain; assumption.
  - destruct (Ascii.eqb c LF) eqn:E3; [apply Ascii.eqb_eq in E3; subst c; reflexivity|].
    apply unq_plain; auto.
Qed.

Lemma unq_esc : forall c s,
  c = "n" \/ c = "t" \/ c = BS \/ c = DQ ->
  go_unquote (BS :: c :: s) = uq_cons (esc_meaning c) (go_unquote s).
Proof. intros c s [-> | [-> | [-> | ->]]]; reflexivity. Qed.

Lemma unq_bom : forall s, go_unquote (BOM_ESC ++ s) = uq_app BOM (go_unquote s).
Proof. intros s. reflexivity. Qed.

Theorem unq_plain_forms : forall f e ps,
  is_interp f = false -> forallb (ok_piece f e) ps = true ->
  go_unquote (flat_map (lit1 f) ps) = UqOk (meaning e ps).
Proof.
  intros f e ps Hi H. apply ok_pieces in H. unfold meaning.
  induction H as [|p ps Hp _ IH]; [reflexivity|]. cbn [flat_map].
  destruct Hp as [c Hc | c _ He | c -> _ | n v Hi' _ _ | ]; cbn [lit1 spell1 app].
  - rewrite unq_char, IH by exact Hc. reflexivity.
  - rewrite unq_esc, IH by exact He. reflexivity.
  - discriminate Hi.
  - congruence.
  - rewrite unq_bom, IH. reflexivity.
Qed.

Theorem unq_interp_forms : forall f e ps,
  forallb (ok_piece f e) ps = true ->
  go_unquote (flat_map (fmt1 f) ps) = UqOk (flat_map uq1 ps).
Proof.
  intros f e ps H. apply ok_pieces in H.
  induction H as [|p ps Hp _ IH]; [reflexivity|]. cbn [flat_map].
  destruct Hp as [c Hc | c _ He | c _ Hc | n v _ _ _ | ]; cbn [fmt1 uq1 lit1 spell1 app].
  - destruct (Ascii.eqb c PCT) eqn:Ep.
    + apply Ascii.eqb_eq in Ep. subst c. simpl. rewrite IH. reflexivity.
    + rewrite unq_char, IH by exact Hc. reflexivity.
  - rewrite unq_esc, IH by exact He. reflexivity.
  - destruct Hc as [-> | ->]; simpl; rewrite IH; reflexivity.
  - simpl. rewrite IH. reflexivity.
  - rewrite unq_bom, IH. reflexivity.
Qed.

Lemma bytes_eqb_refl : forall x, bytes_eqb x x = true.
Proof. intros. unfold bytes_eqb. apply String.eqb_refl. Qed.

Theorem eval_args_holes : forall f e ps,
  forallb (ok_piece f e) ps = true ->
  eval_args e (holes ps) = Some (Some (map (hole_text e) (holes ps))).
Proof.
  intros f e ps H. apply ok_pieces in H. unfold holes.
  induction H as [|p ps Hp _ IH]; [reflexivity|].
  destruct Hp as [ | | | n v _ Hv Hl | ]; try exact IH.
  cbn. unfold hole_text at 1. rewrite Hv, Hl, IH. reflexivity.
Qed.

Theorem sprintf_pieces : forall f e ps,
  forallb (ok_piece f e) ps = true ->
  sprintf (flat_map uq1 ps) (map (hole_text e) (holes ps)) = Some (meaning e ps).
Proof.
  intros f e ps H. apply ok_pieces in H. unfold meaning, holes.
  induction H as [|p ps Hp _ IH]; [reflexivity|].
  destruct Hp as [c Hc | c _ [-> | [-> | [-> | ->]]] | c _ [-> | ->] | n v _ _ _ | ];
    try (cbn; rewrite IH; reflexivity).
  cbn. destruct (Ascii.eqb c PCT) eqn:Ep.
  - apply Ascii.eqb_eq in Ep. subst c. cbn. rewrite IH. reflexivity.
  - cbn. rewrite Ep, IH. reflexivity.
Qed.

Theorem literal_roundtrip_pieces : forall f e ps rest,
  forallb (ok_piece f e) ps = true -> nosplit ps = true ->
  pipeline f e (spell ps ++ close f :: rest) = (Ok (meaning e ps), rest).
Proof.
  intros f e ps rest H Hns. unfold pipeline. rewrite (scan_spell f e ps rest H Hns).
  unfold emit. destruct (is_interp f) eqn:Hi.
  - rewrite (psi_spell f e ps Hi H). unfold run.
    rewrite (unq_interp_forms f e ps H), (eval_args_holes f e ps H),
      (sprintf_pieces f e ps H). reflexivity.
  - unfold run. rewrite (unq_plain_forms f e ps Hi H). reflexivity.
Qed.

(** the lexer returns pieces that spell the body; inside a hole, the brace and the name read so far
    come first *)
Definition opened (hole : option bytes) : bytes :=
  match hole with Some acc => LBR :: rev acc | None => [] end.

Lemma lex_sound_gen : forall f k s hole ps,
  List.length s <= k -> lex f s hole = Some ps -> spell ps = opened hole ++ s.
Proof.
  (* by a bound on the length: [lex] calls itself on the tail one, two and three bytes down *)
  unfold spell. intros f k. induction k as [|k IH]; intros s hole ps Hlen Hlex;
    (destruct s as [|c r]; [destruct hole; [discriminate|]; inversion Hlex; reflexivity|]);
    simpl in Hlen; [lia|].
  assert (IHn : forall r' ps0, List.length r' <= k -> lex f r' None = Some ps0 -> flat_map spell1 ps0 = r')
    by (intros r' ps0; apply (IH r' None)).
  simpl in Hlex. destruct hole as [acc|].
  - destruct (Ascii.eqb c RBR) eqn:Ec.
    + apply Ascii.eqb_eq in Ec. subst c.
      destruct (lex f r None) as [ps0|] eqn:El; [|discriminate]. apply IHn in El; [|lia].
      inversion Hlex. cbn. rewrite El, <- app_assoc. reflexivity.
    + destruct (is_alpha_ c || is_digit c); [|discriminate].
      rewrite (IH r (Some (c :: acc)) ps) by (lia || assumption). cbn. rewrite <- app_assoc. reflexivity.
  - destruct (negb (is_raw f) && Ascii.eqb c BS) eqn:Eb.
    + apply andb_prop in Eb. destruct Eb as [_ Eb]. apply Ascii.eqb_eq in Eb. subst c.
      destruct r as [|c2 r']; [discriminate|].
      destruct (lex f r' None) as [ps0|] eqn:El; [|discriminate]. apply IHn in El; [|simpl in Hlen; lia].
      destruct (is_esc_letter c2); [|destruct (is_interp f && _); [|discriminate]];
        inversion Hlex; cbn; rewrite El; reflexivity.
    + destruct (is_interp f && Ascii.eqb c LBR) eqn:Eh.
      { apply andb_prop in Eh. destruct Eh as [_ Eh]. apply Ascii.eqb_eq in Eh. subst c.
        apply (IH r (Some [])); [lia|exact Hlex]. }
      assert ((match lex f r None with Some ps0 => Some (PChar c :: ps0) | None => None end) = Some ps ->
              flat_map spell1 ps = c :: r) as Hplain.
      { intros Hp. destruct (lex f r None) as [ps0|] eqn:El; [|discriminate]. apply IHn in El; [|lia].
        inversion Hp. cbn. rewrite El. reflexivity. }
      destruct r as [|c2 [|c3 r']]; try (apply Hplain; exact Hlex).
      destruct (Ascii.eqb c EF && Ascii.eqb c2 BB && Ascii.eqb c3 BF) eqn:Eb3; [|apply Hplain; exact Hlex].
      apply andb_prop in Eb3. destruct Eb3 as [Eb3 E3]. apply andb_prop in Eb3. destruct Eb3 as [E1 E2].
      apply Ascii.eqb_eq in E1. apply Ascii.eqb_eq in E2. apply Ascii.eqb_eq in E3. subst c c2 c3.
      destruct (lex f r' None) as [ps0|] eqn:El; [|discriminate]. apply IHn in El; [|simpl in Hlen; lia].
      inversion Hlex. cbn. rewrite El. reflexivity.
Qed.

Theorem lex_sound : forall f body ps, lex f body None = Some ps -> spell ps = body.
Proof. intros f body ps. exact (lex_sound_gen f _ body None ps (le_n _)). Qed.

(** C11, on the bytes of the body: every body in the property's grammar, of any length, in each of
    the four forms, followed by anything, evaluates to its denotation. *)
Theorem literal_roundtrip : forall f e body rest v,
  denote f e body = Some v ->
  pipeline f e (body ++ close f :: rest) = (Ok v, rest).
Proof.
  intros f e body rest v H. unfold denote in H.
  destruct (lex f body None) as [ps|] eqn:El; [|discriminate].
  destruct (forallb (ok_piece f e) ps && nosplit ps) eqn:Hok; [|discriminate].
  apply andb_prop in Hok. destruct Hok as [Hok Hns].
  inversion H. subst v. rewrite <- (lex_sound f body ps El).
  apply literal_roundtrip_pieces; assumption.
Qed.

Theorem wf_denotes : forall f e body, wf f e body = true <-> exists v, denote f e body = Some v.
Proof.
  intros. unfold wf, denote. destruct (lex f body None) as [ps|].
  - destruct (forallb (ok_piece f e) ps && nosplit ps).
    + split; [intros _; eexists|]; reflexivity.
    + split; [discriminate|]. intros [v H]. discriminate.
  - split; [discriminate|]. intros [v H]. discriminate.
Qed.

(** the lexer is complete for spellings of admissible pieces (so [denote] is defined on all of them) *)
Lemma lex_hole : forall f n acc s ps,
  forallb identc n = true -> lex f s None = Some ps ->
  lex f (n ++ RBR :: s) (Some acc) = Some (PHole (rev acc ++ n) :: ps).
Proof.
  induction n as [|c n IH]; intros acc s ps Hn Hs; simpl.
  - rewrite Hs, app_nil_r. reflexivity.
  - simpl in Hn. apply andb_prop in Hn. destruct Hn as [H1 H2].
    rewrite (identc_not c RBR H1 eq_refl).
    unfold identc in H1. rewrite H1. rewrite (IH (c :: acc) s ps H2 Hs).
    simpl. rewrite <- app_assoc. reflexivity.
Qed.

Lemma lex_piece : forall f e p s ps,
  okp f e p -> (forall c, p = PChar c -> Ascii.eqb c EF && starts_bbbf s = false) ->
  lex f s None = Some ps -> lex f (spell1 p ++ s) None = Some (p :: ps).
Proof.
  intros f e p s ps Hp Hla Hs.
  destruct Hp as [c Hc | c Hr [-> | [-> | [-> | ->]]] | c -> [-> | ->] | n v Hi Hn _ | ];
    try (cbn; rewrite ?Hr, Hs; reflexivity).
  - destruct (ok_char_inv _ _ Hc) as (_ & _ & Hbs & Hlb). cbn [spell1 app lex]. rewrite Hs.
    replace (negb (is_raw f) && Ascii.eqb c BS) with false by (destruct (is_raw f); [|rewrite Hbs]; reflexivity).
    replace (is_interp f && Ascii.eqb c LBR) with false by (destruct (is_interp f); [rewrite Hlb|]; reflexivity).
    exact (no_bom_ahead _ c s _ _ (Hla c eq_refl)).
  - cbn. rewrite Hi, andb_false_r, <- app_assoc. cbn. rewrite (lex_hole f n [] s ps (valid_ident_chars n Hn) Hs). reflexivity.
  - destruct f; cbn; rewrite Hs; reflexivity.
Qed.

Theorem lex_complete : forall f e ps,
  forallb (ok_piece f e) ps = true -> nosplit ps = true -> lex f (spell ps) None = Some ps.
Proof.
  intros f e ps H. apply ok_pieces in H.
  induction H as [|p ps Hp _ IH]; intros Hns; [reflexivity|].
  apply (lex_piece f e); [exact Hp| |exact (IH (nosplit_tail _ _ Hns))].
  intros c ->. pose proof (nosplit_lookahead c ps [] Hns eq_refl) as HL.
  rewrite app_nil_r in HL. exact HL.
Qed.

Corollary denote_spell : forall f e ps,
  forallb (ok_piece f e) ps = true -> nosplit ps = true -> denote f e (spell ps) = Some (meaning e ps).
Proof.
  intros f e ps H Hns. unfold denote. rewrite (lex_complete f e ps H Hns), H, Hns. reflexivity.
Qed.

(** Since the repair of scanStringLiteralToken a raw newline inside "..." / $"..." is an ordinary
    character: it is covered by [literal_roundtrip]; for instance: *)
Theorem newline_in_quoted_preserved : forall f rest,
  f = Str \/ f = IStr ->
  pipeline f [] (["a"; LF; "b"] ++ close f :: rest) = (Ok ["a"; LF; "b"], rest).
Proof.
  intros f rest H.
  apply (literal_roundtrip_pieces f [] [PChar "a"; PChar LF; PChar "b"] rest); [|reflexivity].
  destruct H; subst f; reflexivity.
Qed.

Lemma flat_map_chars : forall (g : piece -> bytes),
  (forall c, g (PChar c) = [c]) -> forall z, flat_map g (map PChar z) = z.
Proof. intros g Hg z. induction z as [|c z IH]; [reflexivity|]. cbn. rewrite Hg, IH. reflexivity. Qed.

Lemma chars_ok : forall f e z tl,
  forallb (fun c => ok_char f c && negb (Ascii.eqb c EF)) z = true ->
  forallb (ok_piece f e) (map PChar z) = true /\
  (nosplit tl = true -> nosplit (map PChar z ++ tl) = true).
Proof.
  intros f e z tl. induction z as [|c z IH]; intros Hz; [split; auto|]. simpl in Hz.
  apply andb_prop in Hz. destruct Hz as [Hc Hz]. apply andb_prop in Hc. destruct Hc as [Hc Hef].
  destruct (IH Hz) as [IH1 IH2]. apply negb_true_iff in Hef. split.
  - cbn. rewrite Hc. exact IH1.
  - intros Htl. cbn [map app nosplit]. rewrite (IH2 Htl), andb_true_r.
    destruct (map PChar z ++ tl) as [|[] [|[] ?]]; try reflexivity. rewrite Hef. reflexivity.
Qed.

(** A byte order mark inside a literal of any form is preserved (both scanners write it as the escape
    backslash ufeff since their repair; before, fc copied the three bytes and Go rejected the file:
    "invalid BOM in the middle of the file" — Go's source-validity checks are not modelled, so that
    old behaviour is not stated as a refutation). *)
Theorem bom_in_literal_preserved : forall f x y rest,
  forallb (fun c => ok_char f c && negb (Ascii.eqb c EF)) x = true ->
  forallb (fun c => ok_char f c && negb (Ascii.eqb c EF)) y = true ->
  pipeline f [] (x ++ BOM ++ y ++ close f :: rest) = (Ok (x ++ BOM ++ y), rest).
Proof.
  intros f x y rest Hx Hy.
  destruct (chars_ok f [] x (PBom :: map PChar y) Hx) as [Ox Nx].
  destruct (chars_ok f [] y [] Hy) as [Oy Ny]. rewrite app_nil_r in Ny.
  pose proof (literal_roundtrip_pieces f [] (map PChar x ++ PBom :: map PChar y) rest) as HR.
  unfold spell, meaning in HR. rewrite !flat_map_app in HR. cbn [flat_map] in HR.
  rewrite !flat_map_chars, <- !app_assoc in HR by reflexivity.
  apply HR.
  - rewrite forallb_app, Ox. exact Oy.
  - apply Nx. exact (Ny eq_refl).
Qed.

(** Documentation of the defect that was repaired: with the scanner as it was ([scan_string_old],
    [pipeline_old]) the tokenizer kept the newline verbatim and the emitted Go did not compile, although
    the property counts a newline among "every other character". *)
Theorem newline_in_quoted_old_refuted : forall f rest,
  f = Str \/ f = IStr ->
  pipeline_old f [] (["a"; LF; "b"] ++ close f :: rest) = (CompileError, rest).
Proof. intros f rest [H|H]; subst f; reflexivity. Qed.

Lemma scan_string_old_plain : forall x s,
  forallb (fun c => negb (Ascii.eqb c DQ) && negb (Ascii.eqb c BS)) x = true ->
  scan_string_old (x ++ s) = pre x (scan_string_old s).
Proof.
  induction x as [|c x IH]; intros s H; simpl.
  - destruct (scan_string_old s) as [[v r]|]; reflexivity.
  - simpl in H. apply andb_prop in H. destruct H as [Hc Hx].
    apply andb_prop in Hc. destruct Hc as [H1 H2].
    apply negb_true_iff in H1. apply negb_true_iff in H2. rewrite H1, H2.
    rewrite (IH s Hx). destruct (scan_string_old s) as [[v r]|]; reflexivity.
Qed.

(** with the old scanner, in "..." this held for every body with a raw newline after ordinary
    characters *)
Theorem newline_in_string_old_never_compiles : forall x y rest,
  forallb (fun c => ok_char Str c && negb (Ascii.eqb c LF)) x = true ->
  scan_string_old (y ++ DQ :: rest) = Some (y, rest) ->
  pipeline_old Str [] (x ++ LF :: y ++ DQ :: rest) = (CompileError, rest).
Proof.
  intros x y rest Hx Hy. unfold pipeline_old. simpl is_raw. cbv iota.
  (* the old scanner copies [x], the newline and [y]; Go then stops at the newline *)
  assert (forallb (fun c => negb (Ascii.eqb c DQ) && negb (Ascii.eqb c BS)) x = true /\
          go_unquote (x ++ [LF] ++ y) = UqErr) as [Hp Hu].
  { clear Hy. induction x as [|c x IH]; [split; reflexivity|]. simpl in Hx.
    apply andb_prop in Hx. destruct Hx as [Hc Hx]. apply andb_prop in Hc. destruct Hc as [Hc Hlf].
    apply negb_true_iff in Hlf. destruct (ok_char_inv _ _ Hc) as (Hn & Hdq & Hbs & _).
    specialize (Hbs eq_refl). destruct (IH Hx) as [IH1 IH2]. split.
    - cbn [forallb]. cbn in Hdq. rewrite Hdq, Hbs. exact IH1.
    - rewrite <- app_comm_cons, unq_plain, IH2 by assumption. reflexivity. }
  rewrite (scan_string_old_plain x _ Hp).
  change (LF :: y ++ DQ :: rest) with ([LF] ++ y ++ DQ :: rest).
  rewrite (scan_string_old_plain [LF] _ eq_refl), Hy. cbn [pre emit is_interp run].
  rewrite Hu. reflexivity.
Qed.
