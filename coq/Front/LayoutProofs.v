(** C06. [col_is_true_column]: the column maintained incrementally by newTkz/tkzNext is the true column
    (offset - start of line) of every token that no hidden newline precedes on its line.
    [columns_only_compared]: the offside parser reads columns only through comparisons: any strictly monotone
    relabelling of the columns leaves the result unchanged. *)
From Coq Require Import List ZArith Arith Bool Lia Ascii.
From FoVerif Require Import Front.Layout.
Import ListNotations.
Local Open Scope Z_scope.

(* [E]: where the last EOL token before [cur] ends *)
Lemma cols_from_spec : forall rest cur col E,
  col = rt_begin cur - E ->
  forall k t, nth_error rest k = Some t ->
  nth_error (cols_from cur col rest) k = Some (rt_begin t - eol_end_from E (cur :: rest) (S k)).
Proof.
  induction rest as [|nt rest IH]; intros cur col E Hc k t Hk.
  - destruct k; discriminate.
  - cbn [cols_from]. destruct k as [|k].
    + cbn in Hk. inversion Hk; subst t. cbn [nth_error eol_end_from].
      destruct (rt_eol cur); f_equal; lia.
    + cbn [nth_error] in *. cbn [eol_end_from].
      apply IH; [|exact Hk]. destruct (rt_eol cur); lia.
Qed.

Lemma tkz_cols_spec : forall ts k t,
  nth_error ts k = Some t ->
  nth_error (tkz_cols ts) k = Some (rt_begin t - last_eol_end ts k).
Proof.
  intros [|t0 rest] k t Hk; [destruct k; discriminate|].
  unfold tkz_cols, last_eol_end. destruct k as [|k].
  - cbn in *. inversion Hk; subst. f_equal. lia.
  - cbn [nth_error] in *. apply cols_from_spec; [lia|exact Hk].
Qed.

Lemma tkz_cols_length ts : List.length (tkz_cols ts) = List.length ts.
Proof.
  destruct ts as [|t r]; [reflexivity|]. cbn. f_equal.
  generalize t (rt_begin t). induction r as [|a r IH]; intros; cbn; [reflexivity|]. f_equal. apply IH.
Qed.

Lemma line_start_spec buf : forall (b E : nat), (E <= b)%nat ->
  (E = 0%nat \/ is_nl buf (E - 1) = true) ->
  (forall p, (E <= p < b)%nat -> is_nl buf p = false) ->
  line_start buf b = E.
Proof.
  induction b as [|q IH]; intros E Le HE Hno.
  - cbn. lia.
  - cbn [line_start]. destruct (Nat.eq_dec E (S q)) as [->|Ne].
    + destruct HE as [HE|HE]; [discriminate|]. replace (S q - 1)%nat with q in HE by lia. rewrite HE. reflexivity.
    + rewrite (Hno q) by lia. apply IH; [lia|exact HE|]. intros p Hp. apply Hno. lia.
Qed.

Lemma eol_end_from_cases : forall ts k E,
  eol_end_from E ts k = E \/
  exists i t, (i < k)%nat /\ nth_error ts i = Some t /\ rt_eol t = true /\ eol_end_from E ts k = rt_begin t + rt_len t.
Proof.
  induction ts as [|t ts IH]; intros k E; destruct k as [|k]; cbn [eol_end_from]; auto.
  destruct (rt_eol t) eqn:Et.
  - destruct (IH k (rt_begin t + rt_len t)) as [H|(i & t' & Hi & Hn & He & Hv)].
    + right. exists 0%nat, t. repeat split; auto. lia.
    + right. exists (S i), t'. repeat split; auto. lia.
  - destruct (IH k E) as [H|(i & t' & Hi & Hn & He & Hv)]; auto.
    right. exists (S i), t'. repeat split; auto. lia.
Qed.

Theorem col_is_true_column : forall buf ts k tk,
  wf_stream buf ts ->
  nth_error ts k = Some tk ->
  (forall p, last_eol_end ts k <= p < rt_begin tk -> nl_at buf p = false) ->
  nth_error (tkz_cols ts) k = Some (rt_begin tk - line_start_z buf (rt_begin tk)).
Proof.
  intros buf ts k tk [Hmono Htok] Hk Hno.
  rewrite (tkz_cols_spec ts k tk Hk). f_equal. f_equal.
  destruct (Htok k tk Hk) as [Hb0 _].
  unfold line_start_z.
  set (E := last_eol_end ts k) in *.
  assert (HE : (E = 0) \/ (0 < E <= rt_begin tk /\ nl_at buf (E - 1) = true)).
  { unfold E, last_eol_end. destruct (eol_end_from_cases ts k 0) as [H|(i & t & Hi & Hn & He & Hv)]; [left; exact H|].
    right. destruct (Htok i t Hn) as [Ht0 Heol]. destruct (Heol He) as [Hlen Hnl].
    rewrite Hv. split; [split; [lia|]|].
    - apply (Hmono i k t tk Hi Hn Hk).
    - replace (rt_begin t + rt_len t - 1) with (rt_begin t) by lia. exact Hnl. }
  assert (E0 : 0 <= E <= rt_begin tk) by (destruct HE as [->|[? _]]; lia).
  rewrite (line_start_spec buf (Z.to_nat (rt_begin tk)) (Z.to_nat E)).
  - lia.
  - lia.
  - destruct HE as [->|[Hr Hnl]]; [left; reflexivity|right].
    unfold nl_at in Hnl. apply andb_prop in Hnl. destruct Hnl as [_ Hnl].
    replace (Z.to_nat E - 1)%nat with (Z.to_nat (E - 1)) by lia. exact Hnl.
  - intros p Hp. specialize (Hno (Z.of_nat p)). unfold nl_at in Hno.
    rewrite Nat2Z.id in Hno.
    assert (Hr : E <= Z.of_nat p < rt_begin tk) by lia.
    specialize (Hno Hr). apply andb_false_iff in Hno. destruct Hno as [Hno|Hno]; [|exact Hno].
    apply Z.leb_gt in Hno. lia.
Qed.

Local Close Scope Z_scope.

(** One step of each function of the parser. Unfolding [p_x (S n)] by computation makes the kernel compare every
    recursive call in the result with the whole mutual fixpoint (with all its matches on tokens written out), so
    it is done here, once, and every proof about the parser rewrites with these equations. *)
Lemma p_expr_S n off ts : p_expr (S n) off ts =
  let* (e, r) := p_term n off ts in p_binafter n off e r.
Proof. reflexivity. Qed.
Lemma p_binafter_S n off cur ts : p_binafter (S n) off cur ts =
  match skip_eol ts with
  | (t, _) :: r =>
      if is_binop t then
        let* (rhs, r1) := p_term n off r in p_binafter n off (EBin cur t rhs) r1
      else Ok (cur, ts)
  | [] => Ok (cur, ts)
  end.
Proof. reflexivity. Qed.
Lemma p_term_S n off ts : p_term (S n) off ts =
  match ts with
  | (TMATCH, _) :: r =>
      let* (target, r1) := p_expr n off r in
      match r1 with
      | (TWITH, _) :: r2 =>
          let* (rules, r3) := p_rules n off (skip_eol r2) in Ok (EMatch target rules, r3)
      | _ => Reject
      end
  | (TFUN, _) :: r =>
      let '(ps, r1) := span_until is_arrow r in
      match r1 with
      | (TARROW, _) :: r2 => let* (b, r3) := p_block n off (skip_eol r2) in Ok (EFun ps b, r3)
      | _ => Reject
      end
  | (TIF, _) :: r => p_if n off r
  | (TLS, _) :: _ => let* (a, r) := p_atom n off ts in Ok (EApp [a], r)
  | _ => let* (l, r) := p_atoms n off ts in Ok (EApp l, r)
  end.
Proof. reflexivity. Qed.
Lemma p_if_S n off ts : p_if (S n) off ts =
  let* (cond, r1) := p_expr n off ts in
  match r1 with
  | (TTHEN, _) :: r2 =>
      if head_is_eol r2 then
        let* (tb, r3) := p_block n off (skip_eol r2) in
        match skip_eol r3 with
        | (TELSE, _) :: r4 =>
            let* (eb, r5) := p_block n off (skip_eol r4) in Ok (EIf cond tb (Some eb), r5)
        | (TELIF, _) :: r4 =>
            let* (e, r5) := p_if n off r4 in Ok (EIf cond tb (Some (Blk [SExpr e])), r5)
        | _ => Ok (EIf cond tb None, r3)
        end
      else p_if1 n off cond r2
  | _ => Reject
  end.
Proof. reflexivity. Qed.
Lemma p_if1_S n off cond ts : p_if1 (S n) off cond ts =
  let* (te, r3) := p_expr n off ts in
  match r3 with
  | (TELSE, _) :: r4 =>
      let* (ee, r5) := p_expr n off r4 in
      Ok (EIf cond (Blk [SExpr te]) (Some (Blk [SExpr ee])), r5)
  | (TELIF, _) :: r4 =>
      let* (e, r5) := p_if n off r4 in Ok (EIf cond (Blk [SExpr te]) (Some (Blk [SExpr e])), r5)
  | _ => p_if_nl n off cond te r3
  end.
Proof. reflexivity. Qed.
Lemma p_if_nl_S n off cond te r3 : p_if_nl (S n) off cond te r3 =
  if head_is_eol r3 && col_inside off (skip_eol r3) then
    match skip_eol r3 with
    | (TELSE, _) :: r4 =>
        let* (eb, r5) := p_block n off (skip_eol r4) in Ok (EIf cond (Blk [SExpr te]) (Some eb), r5)
    | (TELIF, _) :: r4 =>
        let* (e, r5) := p_if n off r4 in Ok (EIf cond (Blk [SExpr te]) (Some (Blk [SExpr e])), r5)
    | _ => Ok (EIf cond (Blk [SExpr te]) None, r3)
    end
  else Ok (EIf cond (Blk [SExpr te]) None, r3).
Proof. reflexivity. Qed.
Lemma p_atoms_S n off ts : p_atoms (S n) off ts =
  let* (a, r) := p_atom n off ts in
  if end_of_term r then Ok ([a], r)
  else let* (l, r') := p_atoms n off r in Ok (a :: l, r').
Proof. reflexivity. Qed.
Lemma p_atom_S n off ts : p_atom (S n) off ts =
  match ts with
  | (TA a, _) :: r => Ok (AT (TA a), r)
  | (TSTR a, _) :: r => Ok (AT (TSTR a), r)
  | (TUS, _) :: r => Ok (AT TUS, r)
  | (TDOT, _) :: r => Ok (AT TDOT, r)
  | (TLB, _) :: r =>
      let* (fs, r1) := p_fields n off r in
      match r1 with (TRB, _) :: r2 => Ok (ARec fs, r2) | _ => Reject end
  | (TLS, _) :: r =>
      let* (e, r1) := p_expr n off r in
      let* (es, r2) := p_semis n off r1 in
      match r2 with (TRS, _) :: r3 => Ok (ASlice (e :: es), r3) | _ => Reject end
  | (TLP, _) :: (TRP, _) :: r => Ok (APar [], r)
  | (TLP, _) :: r =>
      let* (e, r1) := p_expr n off r in
      let* (es, r2) := p_commas n off r1 in
      match r2 with
      | (TRP, _) :: r3 => Ok (APar (e :: es), r3)
      | _ => Reject
      end
  | _ => Reject
  end.
Proof. reflexivity. Qed.
Lemma p_commas_S n off ts : p_commas (S n) off ts =
  match ts with
  | (TCOMMA, _) :: r =>
      let* (e, r1) := p_expr n off r in
      let* (es, r2) := p_commas n off r1 in Ok (e :: es, r2)
  | _ => Ok ([], ts)
  end.
Proof. reflexivity. Qed.
Lemma p_semis_S n off ts : p_semis (S n) off ts =
  match ts with
  | (TSEMI, _) :: r =>
      let* (e, r1) := p_expr n off r in
      let* (es, r2) := p_semis n off r1 in Ok (e :: es, r2)
  | _ => Ok ([], ts)
  end.
Proof. reflexivity. Qed.
Lemma p_fields_S n off ts : p_fields (S n) off ts =
  match ts with
  | (TA x, _) :: r =>
      let '(nm, r1) := field_name x r in
      match r1 with
      | (TEQ, _) :: r2 =>
          let* (e, r3) := p_expr n off (skip_eol r2) in
          match r3 with
          | (TRB, _) :: _ => Ok ([(nm, e)], r3)
          | (TSEMI, _) :: r4 => let* (fs, r5) := p_fields n off r4 in Ok ((nm, e) :: fs, r5)
          | _ => Reject
          end
      | _ => Reject
      end
  | _ => Reject
  end.
Proof. reflexivity. Qed.
Lemma p_rules_S n off ts : p_rules (S n) off ts =
  if is_default_mr ts then Reject
  else if is_slit_rule ts then p_srules n off ts
  else match ts with (TBAR, _) :: _ => p_urules n off ts | _ => Reject end.
Proof. reflexivity. Qed.
Lemma p_rule_S n off ts : p_rule (S n) off ts =
  match ts with
  | (TBAR, _) :: r =>
      let '(pat, r1) := span_until is_arrow r in
      match r1 with
      | (TARROW, _) :: r2 => let* (b, r3) := p_block n off (skip_eol r2) in Ok (Rule pat b, r3)
      | _ => Reject
      end
  | _ => Reject
  end.
Proof. reflexivity. Qed.
Lemma p_urules_S n off ts : p_urules (S n) off ts =
  let* (r1, rest) := p_rule n off ts in
  if bar_inside off rest && negb (is_default_mr rest) then
    let* (rs, rest') := p_urules n off (skip_eol rest) in Ok (r1 :: rs, rest')
  else if bar_inside off rest && is_default_mr rest then
    let* (d, rest') := p_rule n off rest in Ok ([r1; d], rest')
  else Ok ([r1], rest).
Proof. reflexivity. Qed.
Lemma p_srules_S n off ts : p_srules (S n) off ts =
  let* (r1, rest) := p_rule n off ts in
  if is_slit_rule rest then
    let* (rs, rest') := p_srules n off rest in Ok (r1 :: rs, rest')
  else if is_default_mr rest && negb (bar_inside off rest) then Reject
  else
    let* (d, rest') := p_rule n off rest in Ok ([r1; d], rest').
Proof. reflexivity. Qed.
Lemma p_stmt_S n off ts : p_stmt (S n) off ts =
  match ts with
  | (TLET, _) :: r =>
      let '(hdr, r1) := span_until is_eq r in
      match r1 with
      | (TEQ, _) :: r2 =>
          if is_var_hdr hdr then
            let* (e, r3) := p_expr n off (skip_eol r2) in Ok (SLet hdr e, r3)
          else
            let* (b, r3) := p_block n off (skip_eol r2) in Ok (SLetFn hdr b, r3)
      | _ => Reject
      end
  | _ => let* (e, r) := p_expr n off ts in Ok (SExpr e, r)
  end.
Proof. reflexivity. Qed.
Lemma p_block_S n off ts : p_block (S n) off ts =
  match ts with
  | (_, c) :: _ =>
      if c <=? off then Reject
      else let* (ss, r) := p_stmts n c ts in
           if last_is_expr ss then Ok (Blk ss, r) else Reject
  | [] => Reject
  end.
Proof. reflexivity. Qed.
Lemma p_stmts_S n c ts : p_stmts (S n) c ts =
  let* (s, r) := p_stmt n c ts in
  let r' := skip_eol r in
  if end_of_block c r' then Ok ([s], r')
  else let* (ss, r'') := p_stmts n c r' in Ok (s :: ss, r'').
Proof. reflexivity. Qed.

(* beta and iota only, so that a match on a known token takes its branch. [cbv] itself would leave a cast to the
   goal as it was, which the kernel types once more: with the body of a parser function in it that is dear;
   [change] leaves none. *)
Ltac beta_iota := match goal with |- ?G => let g := eval cbv beta iota in G in change g end.

Definition strictly_monotone (rho : nat -> nat) : Prop := forall a b, a < b -> rho a < rho b.

Section Relabel.
Variable rho : nat -> nat.
Hypothesis mono : strictly_monotone rho.

Notation mc := (map_cols rho).

Definition rmap {A} (r : res (A * list ptok)) : res (A * list ptok) :=
  match r with Ok (a, ts) => Ok (a, mc ts) | Reject => Reject | Fuel => Fuel end.

Lemma rho_leb a b : (rho a <=? rho b) = (a <=? b).
Proof.
  destruct (a <=? b) eqn:E.
  - apply Nat.leb_le in E. apply Nat.leb_le.
    destruct (Nat.eq_dec a b) as [->|N]; [lia|]. assert (a < b) by lia. specialize (mono a b H). lia.
  - apply Nat.leb_gt in E. apply Nat.leb_gt. apply mono, E.
Qed.
Lemma rho_ltb a b : (rho a <? rho b) = (a <? b).
Proof. rewrite !Nat.ltb_antisym, rho_leb. reflexivity. Qed.

(* [@cons ptok]: left to itself [(t, c) :: r] gets the element type [tok * nat], and [rewrite] does not find it in
   lists that come from the parser, whose element type is the name [ptok] *)
Lemma mc_cons (t : tok) (c : nat) (r : list ptok) :
  mc (@cons ptok (t, c) r) = @cons ptok (t, rho c) (mc r).
Proof. reflexivity. Qed.

Lemma mc_nil : mc [] = [].
Proof. reflexivity. Qed.

Lemma skip_eol_mc ts : skip_eol (mc ts) = mc (skip_eol ts).
Proof. induction ts as [|[t c] r IH]; [reflexivity|]. rewrite mc_cons. destruct t; cbn [skip_eol]; auto. Qed.
Lemma end_of_term_mc ts : end_of_term (mc ts) = end_of_term ts.
Proof. destruct ts as [|[t c] r]; reflexivity. Qed.
Lemma end_of_block_mc c ts : end_of_block (rho c) (mc ts) = end_of_block c ts.
Proof. destruct ts as [|[t c'] r]; [reflexivity|]. rewrite mc_cons. cbn [end_of_block]. rewrite rho_ltb. reflexivity. Qed.
Lemma bar_inside_mc off ts : bar_inside (rho off) (mc ts) = bar_inside off ts.
Proof. destruct ts as [|[t c'] r]; [reflexivity|]. rewrite mc_cons. destruct t; cbn [bar_inside]; auto. apply rho_leb. Qed.
Lemma col_inside_mc off ts : col_inside (rho off) (mc ts) = col_inside off ts.
Proof. destruct ts as [|[t c'] r]; [reflexivity|]. rewrite mc_cons. cbn [col_inside]. apply rho_leb. Qed.
Lemma head_is_eol_mc ts : head_is_eol (mc ts) = head_is_eol ts.
Proof. destruct ts as [|[t c'] r]; [reflexivity|]. rewrite mc_cons. destruct t; reflexivity. Qed.
Lemma field_name_mc x ts : field_name x (mc ts) = let '(nm, r) := field_name x ts in (nm, mc r).
Proof.
  unfold field_name. rewrite skip_eol_mc. destruct (skip_eol ts) as [|[t1 c1] [|[t2 c2] x2]]; try reflexivity.
  - destruct t1; reflexivity.
  - rewrite !mc_cons. destruct t1; try reflexivity. destruct t2; try reflexivity.
    cbn [fst snd]. rewrite skip_eol_mc. reflexivity.
Qed.
Lemma is_default_mr_mc ts : is_default_mr (mc ts) = is_default_mr ts.
Proof. destruct ts as [|[t c] [|[t2 c2] r]]; try reflexivity. Qed.
Lemma is_slit_rule_mc ts : is_slit_rule (mc ts) = is_slit_rule ts.
Proof. destruct ts as [|[t c] [|[t2 c2] r]]; try reflexivity. Qed.
Lemma span_until_mc stop ts :
  span_until stop (mc ts) = let '(l, r) := span_until stop ts in (l, mc r).
Proof.
  induction ts as [|[t c] r IH]; [reflexivity|]. rewrite mc_cons. cbn [span_until].
  destruct (stop t || match t with TEOL => true | _ => false end); [reflexivity|].
  rewrite IH. destruct (span_until stop r) as [l r']. reflexivity.
Qed.

Definition commutes {A} (p : nat -> list ptok -> res (A * list ptok)) : Prop :=
  forall off ts, p (rho off) (mc ts) = rmap (p off ts).

Lemma bind_rmap0 {A B} (m : res (A * list ptok)) (f g : A * list ptok -> res B) :
  (forall a ts, f (a, mc ts) = g (a, ts)) -> bind (rmap m) f = bind m g.
Proof. intros H. destruct m as [[a ts]| |]; [apply H|reflexivity|reflexivity]. Qed.
Lemma bind_rmap {A B} (m : res (A * list ptok)) (f g : A * list ptok -> res (B * list ptok)) :
  (forall a ts, f (a, mc ts) = rmap (g (a, ts))) -> bind (rmap m) f = rmap (bind m g).
Proof. intros H. destruct m as [[a ts]| |]; [apply H|reflexivity|reflexivity]. Qed.

Definition R_all (n : nat) : Prop :=
  commutes (p_expr n) /\
  (forall off cur ts, p_binafter n (rho off) cur (mc ts) = rmap (p_binafter n off cur ts)) /\
  commutes (p_term n) /\ commutes (p_if n) /\
  (forall off cond ts, p_if1 n (rho off) cond (mc ts) = rmap (p_if1 n off cond ts)) /\
  (forall off cond te ts, p_if_nl n (rho off) cond te (mc ts) = rmap (p_if_nl n off cond te ts)) /\
  commutes (p_atoms n) /\ commutes (p_atom n) /\ commutes (p_commas n) /\ commutes (p_semis n) /\
  commutes (p_fields n) /\ commutes (p_rules n) /\ commutes (p_rule n) /\ commutes (p_urules n) /\
  commutes (p_srules n) /\ commutes (p_stmt n) /\ commutes (p_block n) /\ commutes (p_stmts n).

(* a recursive call on relabelled input, by [H]; what remains is the continuation on a result [(a, mc r)] *)
Ltac push H a r := rewrite H; apply bind_rmap; intros a r; beta_iota.
(* split on the first token of [l]; where both sides reject (or return) alike nothing remains *)
Ltac head l t c r :=
  destruct l as [|[t c] r]; [rewrite ?mc_nil|rewrite mc_cons; destruct t]; beta_iota; try reflexivity.
(* the same at the start of a function that dispatches on the first token: its equation [E] is only put in
   once the list is split, so that the splitting acts on a small goal *)
Ltac unfold_head E l t c r :=
  destruct l as [|[t c] r]; [rewrite ?mc_nil|rewrite mc_cons]; rewrite !E; [|destruct t]; beta_iota; try reflexivity.

Lemma relabel_all : forall n, R_all n.
Proof.
  induction n as [|n IH].
  - unfold R_all, commutes. repeat split; intros; reflexivity.
  - destruct IH as (Hexpr & Hbin & Hterm & Hif & Hif1 & Hifnl & Hatoms & Hatom & Hcommas & Hsemis & Hfields & Hrules & Hrule & Hurules & Hsrules & Hstmt & Hblock & Hstmts).
    unfold R_all, commutes. repeat split.
    + intros off ts. rewrite !p_expr_S. push Hterm e r. apply Hbin.
    + intros off cur ts. rewrite !p_binafter_S, skip_eol_mc.
      destruct (skip_eol ts) as [|[t c] r]; [reflexivity|]. rewrite mc_cons. beta_iota.
      destruct (is_binop t); [|reflexivity]. push Hterm e r1. apply Hbin.
    + intros off ts.
      assert (D : (let* (l, r) := p_atoms n (rho off) (mc ts) in Ok (EApp l, r)) =
                  rmap (let* (l, r) := p_atoms n off ts in Ok (EApp l, r))) by (push Hatoms l r; reflexivity).
      unfold_head p_term_S ts t c r; try exact D; clear D.
      * apply Hif.
      * push Hexpr e r1. head r1 t2 c2 r2. rewrite skip_eol_mc. push Hrules l r3. reflexivity.
      * rewrite span_until_mc. destruct (span_until is_arrow r) as [ps r1]. beta_iota.
        head r1 t2 c2 r2. rewrite skip_eol_mc. push Hblock b r3. reflexivity.
      * rewrite <- mc_cons. push Hatom a r1. reflexivity.
    + intros off ts. rewrite !p_if_S. push Hexpr cond r1. head r1 t1 c1 r2.
      rewrite head_is_eol_mc. destruct (head_is_eol r2); [|apply Hif1].
      rewrite skip_eol_mc. push Hblock tb r3. rewrite skip_eol_mc. head (skip_eol r3) t3 c3 r4.
      * rewrite skip_eol_mc. push Hblock eb r5. reflexivity.
      * push Hif e r5. reflexivity.
    + intros off cond ts. rewrite !p_if1_S. push Hexpr te r3.
      pose proof (Hifnl off cond te r3) as D. head r3 t3 c3 r4; try exact D; clear D.
      * push Hexpr ee r5. reflexivity.
      * push Hif e r5. reflexivity.
    + intros off cond te ts. rewrite !p_if_nl_S, head_is_eol_mc, skip_eol_mc, col_inside_mc.
      destruct (head_is_eol ts && col_inside off (skip_eol ts)); [|reflexivity].
      head (skip_eol ts) t3 c3 r4.
      * rewrite skip_eol_mc. push Hblock eb r5. reflexivity.
      * push Hif e r5. reflexivity.
    + intros off ts. rewrite !p_atoms_S. push Hatom a r. rewrite end_of_term_mc.
      destruct (end_of_term r); [reflexivity|]. push Hatoms l r'. reflexivity.
    + intros off ts. unfold_head p_atom_S ts t c r.
      * assert (D :
          (let* (e, r1) := p_expr n (rho off) (mc r) in
           let* (es, r2) := p_commas n (rho off) r1 in
           match r2 with (TRP, _) :: r3 => Ok (APar (e :: es), r3) | _ => Reject end) =
          rmap (let* (e, r1) := p_expr n off r in
           let* (es, r2) := p_commas n off r1 in
           match r2 with (TRP, _) :: r3 => Ok (APar (e :: es), r3) | _ => Reject end)).
        { push Hexpr e r1. push Hcommas es r2. head r2 t3 c3 r3. }
        head r t2 c2 r2; exact D.
      * push Hfields fs r1. head r1 t3 c3 r2.
      * push Hexpr e r1. push Hsemis es r2. head r2 t3 c3 r3.
    + intros off ts. unfold_head p_commas_S ts t c r. push Hexpr e r1. push Hcommas es r2. reflexivity.
    + intros off ts. unfold_head p_semis_S ts t c r. push Hexpr e r1. push Hsemis es r2. reflexivity.
    + intros off ts. unfold_head p_fields_S ts t c r.
      rewrite field_name_mc. destruct (field_name a r) as [nm r1]. beta_iota.
      head r1 t2 c2 r2. rewrite skip_eol_mc. push Hexpr e r3. head r3 t3 c3 r4.
      push Hfields fs r5. reflexivity.
    + intros off ts. rewrite !p_rules_S, is_default_mr_mc, is_slit_rule_mc.
      destruct (is_default_mr ts); [reflexivity|]. destruct (is_slit_rule ts); [apply Hsrules|].
      pose proof (Hurules off ts) as D. head ts t c r. exact D.
    + intros off ts. unfold_head p_rule_S ts t c r.
      rewrite span_until_mc. destruct (span_until is_arrow r) as [pat r1]. beta_iota.
      head r1 t2 c2 r2. rewrite skip_eol_mc. push Hblock b r3. reflexivity.
    + intros off ts. rewrite !p_urules_S. push Hrule r1 rest. rewrite bar_inside_mc, is_default_mr_mc.
      destruct (bar_inside off rest && negb (is_default_mr rest)).
      * rewrite skip_eol_mc. push Hurules rs rest'. reflexivity.
      * destruct (bar_inside off rest && is_default_mr rest); [|reflexivity]. push Hrule d rest'. reflexivity.
    + intros off ts. rewrite !p_srules_S. push Hrule r1 rest.
      rewrite is_slit_rule_mc, is_default_mr_mc, bar_inside_mc.
      destruct (is_slit_rule rest); [push Hsrules rs rest'; reflexivity|].
      destruct (is_default_mr rest && negb (bar_inside off rest)); [reflexivity|]. push Hrule d rest'. reflexivity.
    + intros off ts.
      assert (D : (let* (e, r) := p_expr n (rho off) (mc ts) in Ok (SExpr e, r)) =
                  rmap (let* (e, r) := p_expr n off ts in Ok (SExpr e, r))) by (push Hexpr e r; reflexivity).
      unfold_head p_stmt_S ts t c r; try exact D; clear D.
      rewrite span_until_mc. destruct (span_until is_eq r) as [hdr r1]. beta_iota.
      head r1 t2 c2 r2. rewrite skip_eol_mc.
      destruct (is_var_hdr hdr); [push Hexpr e r3|push Hblock b r3]; reflexivity.
    + intros off [|[t c] r]; rewrite ?mc_cons, !p_block_S; [reflexivity|]. beta_iota.
      rewrite rho_leb. destruct (c <=? off); [reflexivity|]. rewrite <- mc_cons. push Hstmts ss r1.
      destruct (last_is_expr ss); reflexivity.
    + intros c ts. rewrite !p_stmts_S. push Hstmt s r. cbv zeta. rewrite skip_eol_mc, end_of_block_mc.
      destruct (end_of_block c (skip_eol r)); [reflexivity|]. push Hstmts ss r''. reflexivity.
Qed.

Lemma p_stmt_mc n : commutes (p_stmt n).
Proof. apply relabel_all. Qed.
Lemma p_block_mc n : commutes (p_block n).
Proof. apply relabel_all. Qed.

Lemma p_cases_mc : forall n ts, p_cases n (mc ts) = rmap (p_cases n ts).
Proof.
  induction n as [|n IH]; intros ts; [reflexivity|]. cbn [p_cases]. head ts t c r.
  rewrite span_until_mc. destruct (span_until is_bar r) as [cs r1]. beta_iota.
  rewrite skip_eol_mc. head (skip_eol r1) t2 c2 r2. rewrite <- mc_cons. push IH css r3. reflexivity.
Qed.

Lemma p_fdefs_mc : forall n ts, p_fdefs n (mc ts) = rmap (p_fdefs n ts).
Proof.
  induction n as [|n IH]; intros ts; [reflexivity|]. cbn [p_fdefs]. rewrite skip_eol_mc.
  head (skip_eol ts) t c r.
  rewrite skip_eol_mc, span_until_mc. destruct (span_until is_semi_or_rb (skip_eol r)) as [ty r1]. beta_iota.
  head r1 t2 c2 r2. rewrite skip_eol_mc. head (skip_eol r2) t3 c3 r3; push IH fs r4; reflexivity.
Qed.

Lemma p_extdefs_mc : forall n c ts, p_extdefs n (rho c) (mc ts) = rmap (p_extdefs n c ts).
Proof.
  induction n as [|n IH]; intros c ts; [reflexivity|]. cbn [p_extdefs]. head ts t c1 r.
  all: rewrite <- mc_cons, span_until_mc;
    match goal with |- context [span_until never ?x] => destruct (span_until never x) as [l r1] end; beta_iota;
    rewrite skip_eol_mc, end_of_block_mc; (destruct (end_of_block c (skip_eol r1)); [reflexivity|]);
    push IH ds r''; reflexivity.
Qed.

Hypothesis rho0 : rho 0 = 0.

Lemma p_root_mc : forall n ts, p_root n (mc ts) = p_root n ts.
Proof.
  induction n as [|n IH]; intros ts; [reflexivity|]. cbn [p_root]. rewrite skip_eol_mc.
  head (skip_eol ts) t c r.
  - (* TLET *) rewrite <- mc_cons. rewrite <- rho0 at 1. rewrite p_stmt_mc. apply bind_rmap0. intros s r1. beta_iota.
    rewrite IH. reflexivity.
  - (* TTYPE *) rewrite span_until_mc. destruct (span_until is_eq r) as [hdr r1]. beta_iota.
    head r1 t2 c2 r2. rewrite skip_eol_mc. head (skip_eol r2) t3 c3 r3.
    all: try (rewrite <- ?mc_cons, span_until_mc;
      match goal with |- context [span_until never ?x] => destruct (span_until never x) as [l r4] end; beta_iota;
      rewrite IH; reflexivity).
    + rewrite <- mc_cons, p_cases_mc. apply bind_rmap0. intros cs r4. beta_iota. rewrite IH. reflexivity.
    + rewrite p_fdefs_mc. apply bind_rmap0. intros fs r4. beta_iota. head r4 t4 c4 r5. rewrite IH. reflexivity.
  - (* TKW *) destruct (is_pkginfo k).
    + rewrite span_until_mc. destruct (span_until is_eq r) as [hdr r1]. beta_iota.
      head r1 t2 c2 r2. rewrite skip_eol_mc. destruct (skip_eol r2) as [|[t3 c3] r3]; [reflexivity|].
      rewrite mc_cons. beta_iota. rewrite <- (rho_leb c3 0), rho0. destruct (rho c3 <=? 0); [reflexivity|].
      rewrite <- mc_cons, p_extdefs_mc. apply bind_rmap0. intros ds r4. beta_iota. rewrite IH. reflexivity.
    + rewrite span_until_mc. destruct (span_until never r) as [l r1]. beta_iota. rewrite IH. reflexivity.
Qed.

End Relabel.

Theorem columns_only_compared : forall rho, strictly_monotone rho -> rho 0 = 0 ->
  forall n ts, parse_blocks n (map_cols rho ts) = parse_blocks n ts.
Proof. intros rho M Z. exact (p_root_mc rho M Z). Qed.

(** inside one block, with an arbitrary offside column (no margin condition) *)
Theorem columns_only_compared_block : forall rho, strictly_monotone rho ->
  forall n off ts,
    p_block n (rho off) (map_cols rho ts) =
    match p_block n off ts with Ok (b, r) => Ok (b, map_cols rho r) | Reject => Reject | Fuel => Fuel end.
Proof. intros rho M n. exact (p_block_mc rho M n). Qed.
