(** C16: the list-parsing loops of fc (ParseList, ParseList2 in fc/wrapper.go, ParseSepList in
    fc/parse_state.fo) over an abstract parser state.

      ParseList one endPred ps:        for !endPred(ps) { ps, r = one(ps); res = append(res, r) }
      ParseList2 one endPred next ps:  ps, r = one(ps); res = [r]
                                       for !endPred(ps) { ps = next(ps); ps, r = one(ps); res = append(res, r) }
      ParseSepList one sep ps = ParseList2 one (psCurIsNot sep) (psConsume sep) ps

    [one] and [next] may panic (None = a diagnostic). The state carries a measure [remaining]
    (tokens left in the buffer, finite by tokenize_terminates). The loops are Go [for] loops, so
    they take fuel; the theorem: if every successful [one] consumes at least one token and [next]
    does not give tokens back, fuel [remaining + 1] is never exhausted. *)
From Coq Require Import List Arith Bool Lia.
Import ListNotations.

Section ListLoop.
  Variable ps : Type.                               (* ParseState *)
  Variable T : Type.
  Variable remaining : ps -> nat.
  Variable one : ps -> option (ps * T).
  Variable end_pred : ps -> bool.
  Variable next : ps -> option ps.

  Inductive lres :=
  | LOk (p : ps) (res : list T)
  | LDiag
  | LOutOfFuel.

  Fixpoint parse_list (fuel : nat) (p : ps) (acc : list T) : lres :=
    match fuel with
    | 0 => LOutOfFuel
    | S f =>
      if end_pred p then LOk p (rev acc)
      else match one p with
           | None => LDiag
           | Some (p', r) => parse_list f p' (r :: acc)
           end
    end.

  Fixpoint parse_list2_loop (fuel : nat) (p : ps) (acc : list T) : lres :=
    match fuel with
    | 0 => LOutOfFuel
    | S f =>
      if end_pred p then LOk p (rev acc)
      else match next p with
           | None => LDiag
           | Some p1 =>
             match one p1 with
             | None => LDiag
             | Some (p2, r) => parse_list2_loop f p2 (r :: acc)
             end
           end
    end.

  Definition parse_list2 (fuel : nat) (p : ps) : lres :=
    match one p with
    | None => LDiag
    | Some (p1, r) => parse_list2_loop fuel p1 [r]
    end.

  Hypothesis one_consumes : forall p p' r, one p = Some (p', r) -> remaining p' < remaining p.
  Hypothesis next_no_gain : forall p p', next p = Some p' -> remaining p' <= remaining p.

  Definition terminated (p0 : ps) (o : lres) : Prop :=
    match o with
    | LOk p _ => remaining p <= remaining p0
    | LDiag => True
    | LOutOfFuel => False
    end.

  Lemma terminated_le : forall p p' o,
    remaining p' <= remaining p -> terminated p' o -> terminated p o.
  Proof. intros p p' [q res| |] Hle; cbn; auto. lia. Qed.

  Lemma parse_list_ok : forall fuel p acc,
    remaining p < fuel -> terminated p (parse_list fuel p acc).
  Proof.
    induction fuel as [|f IH]; intros p acc Hf; [lia|].
    cbn [parse_list]. destruct (end_pred p); [cbn; lia|].
    destruct (one p) as [[p' r]|] eqn:E; [|exact I].
    apply one_consumes in E. apply (terminated_le p p'); [|apply IH]; lia.
  Qed.

  Lemma parse_list2_loop_ok : forall fuel p acc,
    remaining p < fuel -> terminated p (parse_list2_loop fuel p acc).
  Proof.
    induction fuel as [|f IH]; intros p acc Hf; [lia|].
    cbn [parse_list2_loop]. destruct (end_pred p); [cbn; lia|].
    destruct (next p) as [p1|] eqn:En; [|exact I]. apply next_no_gain in En.
    destruct (one p1) as [[p2 r]|] eqn:E; [|exact I].
    apply one_consumes in E. apply (terminated_le p p2); [|apply IH]; lia.
  Qed.

  (** C16: ParseList terminates within remaining+1 rounds: a list and a state that is not behind
      the start, or a diagnostic — never OutOfFuel *)
  Theorem parse_list_progress : forall p,
    terminated p (parse_list (S (remaining p)) p []).
  Proof. intros p. apply parse_list_ok. lia. Qed.

  Theorem parse_list2_progress : forall p,
    terminated p (parse_list2 (S (remaining p)) p).
  Proof.
    intros p. unfold parse_list2. destruct (one p) as [[p1 r]|] eqn:E; [|exact I].
    apply one_consumes in E. apply (terminated_le p p1); [|apply parse_list2_loop_ok]; lia.
  Qed.
End ListLoop.

Arguments LOk {ps T}.
Arguments LDiag {ps T}.
Arguments LOutOfFuel {ps T}.

(** ParseSepList: ParseList2 with endPred = "the current token is not the separator" and
    next = "consume the separator" *)
Section SepList.
  Variable ps : Type.
  Variable T : Type.
  Variable remaining : ps -> nat.
  Variable one : ps -> option (ps * T).
  Variable cur_is_sep : ps -> bool.
  Variable consume_sep : ps -> option ps.            (* psConsume sep: panics on another token *)

  Definition parse_sep_list (fuel : nat) (p : ps) : lres ps T :=
    parse_list2 ps T one (fun p => negb (cur_is_sep p)) consume_sep fuel p.

  Hypothesis one_consumes : forall p p' r, one p = Some (p', r) -> remaining p' < remaining p.
  Hypothesis consume_no_gain : forall p p', consume_sep p = Some p' -> remaining p' <= remaining p.

  Theorem parse_sep_list_progress : forall p,
    terminated ps T remaining p (parse_sep_list (S (remaining p)) p).
  Proof. intros p. apply parse_list2_progress; assumption. Qed.
End SepList.

(** the hypothesis is needed: a step that succeeds without consuming loops forever *)
Theorem parse_list_stuck_step_refuted :
  forall fuel, parse_list nat unit (fun p => Some (p, tt)) (fun _ => false) fuel 0 [] = LOutOfFuel.
Proof.
  intros fuel. generalize (@nil unit). induction fuel as [|f IH]; intros acc; [reflexivity|].
  cbn [parse_list]. apply IH.
Qed.

(** a concrete instance: the state is the list of remaining tokens, an element is a number token
    (< 100), the separator is token 100 *)
Definition ex_one (p : list nat) : option (list nat * nat) :=
  match p with
  | x :: r => if x <? 100 then Some (r, x) else None
  | [] => None
  end.
Definition ex_is_sep (p : list nat) : bool := match p with 100 :: _ => true | _ => false end.
Definition ex_consume (p : list nat) : option (list nat) := match p with 100 :: r => Some r | _ => None end.

Example parse_sep_list_example :
  parse_sep_list (list nat) nat ex_one ex_is_sep ex_consume 8 [1; 100; 2; 100; 3; 7; 100]
  = LOk [7; 100] [1; 2; 3].
Proof. vm_compute. reflexivity. Qed.

Example parse_sep_list_example_diag :
  parse_sep_list (list nat) nat ex_one ex_is_sep ex_consume 5 [1; 100; 100; 2] = LDiag.
Proof. vm_compute. reflexivity. Qed.
