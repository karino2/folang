(** C09 proofs.  The dictionary that exaustiveCheck fills (dict.ToDict, dict.Add, dict.KVs) is the dict
    package: [dict_add] of Exhaust.v is the map update [m_set] of Pkg/Dict.v at string keys and bool values,
    with the arguments in another order, so the facts about the map are those of Pkg/DictProofs.v. *)
From Coq Require Import List String Bool Permutation Lia Arith.
From FoVerif Require Import Front.Exhaust Pkg.Dict Pkg.DictProofs.
Import ListNotations.

Local Notation dget d k := (m_get string bool String.eqb d k).

Lemma dict_add_set k v d : dict_add k v d = m_set string bool String.eqb d k v.
Proof. induction d as [|[k0 v0] d IH]; cbn; [|rewrite IH]; reflexivity. Qed.

Lemma fold_add {X} (key : X -> string) v xs : forall d0, NoDup (map fst d0) ->
  let d := fold_left (fun d x => dict_add (key x) v d) xs d0 in
  NoDup (map fst d) /\
  (forall k, In k (map key xs) -> dget d k = Some v) /\
  (forall k, ~ In k (map key xs) -> dget d k = dget d0 k).
Proof.
  induction xs as [|x xs IH]; intros d0 Hnd; cbn [fold_left map]; [cbn; intuition|].
  rewrite dict_add_set.
  destruct (IH _ (m_set_nodup _ _ _ String.eqb_eq d0 (key x) v Hnd)) as (H1 & H2 & H3).
  split; [exact H1|]. split; intros k Hk.
  - destruct (in_dec string_dec k (map key xs)) as [Hin|Hni]; [now apply H2|].
    rewrite H3, (m_get_set _ _ _ String.eqb_eq) by assumption.
    destruct Hk as [<-|Hk]; [now rewrite String.eqb_refl|contradiction].
  - rewrite H3, (m_get_set _ _ _ String.eqb_eq) by (intros Hc; apply Hk; now right).
    destruct (String.eqb_spec k (key x)) as [->|]; [|reflexivity]. destruct Hk. now left.
Qed.

Lemma mark_arms_uncovered cases arms n :
  In (n, false) (mark_arms cases arms) <-> In n cases /\ ~ In n (map a_case arms).
Proof.
  unfold mark_arms, to_dict.
  replace (fold_left _ (map (fun c => (c, false)) cases) [])
    with (fold_left (fun d c => dict_add c false d) cases []).
  2:{ generalize (@nil (string * bool)). induction cases; cbn; auto. }
  destruct (fold_add (fun c => c) false cases [] (NoDup_nil _)) as (N0 & Hin0 & Hout0).
  destruct (fold_add a_case true arms _ N0) as (N & Hin & Hout).
  rewrite map_id in *. rewrite (m_get_in _ _ _ String.eqb_eq _ n false N).
  destruct (in_dec string_dec n (map a_case arms)) as [Ha|Ha].
  - rewrite (Hin _ Ha). split; [discriminate|tauto].
  - rewrite (Hout _ Ha). destruct (in_dec string_dec n cases) as [Hc|Hc].
    + rewrite (Hin0 _ Hc). tauto.
    + rewrite (Hout0 _ Hc). split; [discriminate|tauto].
Qed.

Lemma find_arm_none c arms i : find_arm c arms i = None -> ~ In c (map a_case arms).
Proof.
  revert i. induction arms as [|a arms IH]; cbn; intros i H; [tauto|].
  destruct (String.eqb_spec (a_case a) c) as [E|Hne]; [discriminate|].
  intros [E|Hin]; [congruence|]. eapply IH; eassumption.
Qed.

Lemma find_arm_some c arms i j : find_arm c arms i = Some j ->
  i <= j /\ (exists a, nth_error arms (j - i) = Some a /\ a_case a = c) /\
  (forall k a, k < j - i -> nth_error arms k = Some a -> a_case a <> c).
Proof.
  revert i. induction arms as [|a arms IH]; cbn; intros i H; [discriminate|].
  destruct (String.eqb_spec (a_case a) c) as [E|Hne].
  - inversion H; subst j. split; [lia|]. replace (i - i) with 0 by lia. split; [exists a; auto|].
    intros k a' Hk; lia.
  - destruct (IH _ H) as (Hle & (a' & Hn & Hc) & Hbefore). split; [lia|].
    replace (j - i) with (S (j - S i)) by lia. split; [exists a'; auto|].
    intros [|k] a'' Hk; cbn; intros Hnth; [inversion Hnth; congruence|].
    apply (Hbefore k a''); [lia|exact Hnth].
Qed.

Theorem dispatch_first_matching_arm arms has_default c i :
  dispatch arms has_default c = ArmNo i ->
  (exists a, nth_error arms i = Some a /\ a_case a = c) /\
  (forall k a, k < i -> nth_error arms k = Some a -> a_case a <> c).
Proof.
  unfold dispatch. destruct (find_arm c arms 0) eqn:Hf; [|destruct has_default; discriminate].
  intros E; inversion E; subst. apply find_arm_some in Hf. destruct Hf as (_ & H1 & H2).
  rewrite Nat.sub_0_r in *. split; assumption.
Qed.

Section Enum.
  Variable enum : list (string * bool) -> list (string * bool).
  Hypothesis enum_perm : forall l, Permutation (enum l) l.

  Lemma uncovered_iff cases arms n b :
    In (n, b) (filter (fun p => negb (snd p)) (enum (mark_arms cases arms))) <->
    b = false /\ In n cases /\ ~ In n (map a_case arms).
  Proof.
    rewrite filter_In, <- mark_arms_uncovered. cbn [snd].
    assert (In (n, b) (enum (mark_arms cases arms)) <-> In (n, b) (mark_arms cases arms)) as ->.
    { split; apply Permutation_in; [|apply Permutation_sym]; apply enum_perm. }
    destruct b; cbn; intuition discriminate.
  Qed.

  Lemma exhaustive_accept_iff cases arms :
    exhaustive_check enum cases arms = Accept <-> incl cases (map a_case arms).
  Proof.
    unfold exhaustive_check. pose proof (uncovered_iff cases arms) as U.
    destruct (filter _ _) as [|[n b] r].
    - split; [intros _|reflexivity]. intros c Hc.
      destruct (in_dec string_dec c (map a_case arms)) as [Hin|Hni]; [assumption|].
      exfalso. apply (U c false). auto.
    - split; [discriminate|]. intros Hincl.
      destruct (proj1 (U n b) (or_introl eq_refl)) as (_ & Hc & Hna). destruct (Hna (Hincl _ Hc)).
  Qed.

  Lemma exhaustive_reject_names_uncovered cases arms n :
    exhaustive_check enum cases arms = RejectUncovered n -> In n cases /\ ~ In n (map a_case arms).
  Proof.
    unfold exhaustive_check. pose proof (uncovered_iff cases arms) as U.
    destruct (filter _ _) as [|[n' b] r]; [discriminate|].
    intros E; injection E as ->. apply (U n b). now left.
  Qed.

  Theorem accept_iff_covers cases arms has_default :
    check enum cases arms has_default = Accept <->
    arms <> [] /\ (has_default = true \/ incl cases (map a_case arms)).
  Proof.
    unfold check. destruct arms as [|a arms].
    - destruct has_default; split; try discriminate; intros [H _]; congruence.
    - destruct has_default.
      + split; [intros _; split; [discriminate|now left]|reflexivity].
      + rewrite exhaustive_accept_iff. split.
        * intros H; split; [discriminate|now right].
        * intros [_ [H|H]]; [discriminate|exact H].
  Qed.

  Theorem reject_names_uncovered cases arms has_default n :
    check enum cases arms has_default = RejectUncovered n ->
    has_default = false /\ In n cases /\ ~ In n (map a_case arms).
  Proof.
    unfold check. destruct arms as [|a arms]; [destruct has_default; discriminate|].
    destruct has_default; [discriminate|].
    intros H. split; [reflexivity|]. eapply exhaustive_reject_names_uncovered; eassumption.
  Qed.

  Theorem never_reached_unreachable cases arms has_default c :
    check enum cases arms has_default = Accept -> In c cases ->
    dispatch arms has_default c <> NeverReached.
  Proof.
    intros Hacc Hc. apply accept_iff_covers in Hacc. destruct Hacc as [_ Hor].
    unfold dispatch. destruct (find_arm c arms 0) eqn:Hf; [discriminate|].
    destruct has_default; [discriminate|]. destruct Hor as [H|H]; [discriminate|].
    exfalso. eapply find_arm_none; [eassumption|]. apply H, Hc.
  Qed.

End Enum.

(** only the decision: the case named in the diagnostic may differ *)
Theorem decision_order_independent enum enum' :
  (forall l, Permutation (enum l) l) -> (forall l, Permutation (enum' l) l) ->
  forall cases arms has_default,
    check enum cases arms has_default = Accept <-> check enum' cases arms has_default = Accept.
Proof.
  intros Hp Hp' cases arms hd. rewrite (accept_iff_covers enum Hp), (accept_iff_covers enum' Hp').
  reflexivity.
Qed.

Lemma rotate_perm {A} k (l : list A) : Permutation (rotate k l) l.
Proof.
  unfold rotate. destruct l as [|x l]; [constructor|].
  set (n := Nat.modulo k (List.length (x :: l))).
  rewrite <- (firstn_skipn n (x :: l)) at 3. apply Permutation_app_comm.
Qed.

Lemma enum_k_perm k r l : Permutation (enum_k k r l) l.
Proof.
  unfold enum_k. destruct r; [|apply rotate_perm].
  eapply Permutation_trans; [apply Permutation_sym, Permutation_rev|apply rotate_perm].
Qed.
