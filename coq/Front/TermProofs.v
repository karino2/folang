(** C16, front half: the scanners of Front/Term.v never run out of fuel, make progress, and the
    tokenizer reaches EOF or a diagnostic within (length buf + 1) tokens. *)
From Coq Require Import List Arith Bool ZArith String Ascii Lia.
From FoVerif Require Import Front.Term.
Import ListNotations.

Local Open Scope nat_scope.

Lemma nth_some_lt : forall (buf : bytes) j c, nth_error buf j = Some c -> j < List.length buf.
Proof. intros buf j c H. apply nth_error_Some. congruence. Qed.

Lemma is_char_at_true_nth : forall buf j ch, is_char_at buf j ch = true -> nth_error buf j = Some ch.
Proof.
  unfold is_char_at. intros buf j ch H.
  destruct (nth_error buf j); [|discriminate]. apply Nat.eqb_eq in H. congruence.
Qed.

Lemma is_char_at_true_lt : forall buf j ch, is_char_at buf j ch = true -> j < List.length buf.
Proof. intros buf j ch H. eapply nth_some_lt, is_char_at_true_nth, H. Qed.

Lemma is_string_at_head : forall buf j c s,
  is_string_at buf j (c :: s) = true -> nth_error buf j = Some c.
Proof.
  cbn [is_string_at]. intros buf j c s H.
  destruct (nth_error buf j); [|discriminate]. apply andb_true_iff, proj1, Nat.eqb_eq in H. congruence.
Qed.

Lemma is_string_at_cons_le : forall s c buf j,
  is_string_at buf j (c :: s) = true -> j + List.length (c :: s) <= List.length buf.
Proof.
  induction s as [|d s IH]; intros c buf j H; pose proof (nth_some_lt _ _ _ (is_string_at_head _ _ _ _ H)).
  - cbn. lia.
  - cbn [is_string_at] in H. destruct (nth_error buf j); [|discriminate].
    apply andb_true_iff, proj2, IH in H. cbn [List.length] in *. lia.
Qed.

Lemma search_forward_n_some : forall n buf pos c s e,
  search_forward_n n buf pos (c :: s) = Some e ->
  pos <= e /\ e + List.length (c :: s) <= List.length buf.
Proof.
  induction n as [|n IH]; intros buf pos c s e H; cbn [search_forward_n] in H; [discriminate|].
  destruct (is_string_at buf pos (c :: s)) eqn:E.
  - inversion H; subst. split; [lia|]. now apply is_string_at_cons_le.
  - apply IH in H. lia.
Qed.

(** all that the totality proofs need of the byte-order-mark test; the rune-wise test of commit 0061363
    has it too *)
Lemma bom_at_inside : forall buf j, bom_at buf j = true -> j + 3 <= List.length buf.
Proof. intros buf j H. exact (is_string_at_cons_le _ _ _ _ H). Qed.

Lemma bom_at_runewise_old_inside : forall buf j,
  bom_at_runewise_old buf j = true -> j + 3 <= List.length buf.
Proof.
  intros buf j H. apply andb_true_iff, proj1, Nat.leb_le in H. exact H.
Qed.

(** the rune-wise test of commit 0061363 accepted three bytes that are not a byte order mark:
    quote, U+FF71 (EF BD B1), quote *)
Theorem bom_test_runewise_old_refuted :
  exists buf j, bom_at_runewise_old buf j = true /\ is_string_at buf j bom = false.
Proof. exists [34; 239; 189; 177; 34], 1. split; reflexivity. Qed.

Lemma skip_char_ok : forall fuel buf j ch,
  j <= List.length buf < j + fuel ->
  exists j', skip_char fuel buf j ch = Some j' /\ j <= j' <= List.length buf /\
             (is_char_at buf j ch = true -> j < j').
Proof.
  induction fuel as [|f IH]; intros buf j ch Hj; [lia|].
  cbn [skip_char]. destruct (is_char_at buf j ch) eqn:E.
  - apply is_char_at_true_lt in E.
    destruct (IH buf (S j) ch) as (j' & Hs & Hb & _); [lia|].
    exists j'. split; [exact Hs|lia].
  - exists j. split; [reflexivity|]. split; [lia|discriminate].
Qed.

Lemma skip_line_ok : forall fuel buf j,
  j <= List.length buf < j + fuel ->
  exists j', skip_line fuel buf j = Some j' /\ j <= j' <= List.length buf /\
             (is_string_at buf j slash_slash = true -> j < j').
Proof.
  induction fuel as [|f IH]; intros buf j Hj; [lia|].
  cbn [skip_line].
  destruct ((j <? List.length buf) && negb (is_char_at buf j 10)) eqn:E.
  - apply andb_true_iff, proj1, Nat.ltb_lt in E.
    destruct (IH buf (S j)) as (j' & Hs & Hb & _); [lia|].
    exists j'. split; [exact Hs|lia].
  - exists j. split; [reflexivity|]. split; [lia|].
    (* the loop stops at once, so the byte at [j] is no slash *)
    intros Hs. apply is_string_at_head in Hs. unfold is_char_at in E.
    rewrite Hs, (proj2 (Nat.ltb_lt _ _) (nth_some_lt _ _ _ Hs)) in E. discriminate.
Qed.

(** the position after the block comment that may begin at [j2] *)
Lemma after_block_ok : forall buf j2 j3,
  j2 <= List.length buf ->
  (if is_string_at buf j2 slash_star
   then match search_forward buf (j2 + 2) star_slash with
        | None => None
        | Some e => Some (e + 2)
        end
   else Some j2) = Some j3 ->
  j2 <= j3 <= List.length buf /\ (is_string_at buf j2 slash_star = true -> j2 < j3).
Proof.
  intros buf j2 j3 Hj H. destruct (is_string_at buf j2 slash_star).
  - destruct (search_forward buf (j2 + 2) star_slash) as [e|] eqn:Ee; [|discriminate].
    apply search_forward_n_some in Ee. cbn [List.length] in Ee. inversion H. lia.
  - inversion H. subst j3. split; [lia|discriminate].
Qed.

Definition space_tok_ok (buf : bytes) (pos j : nat) (o : outcome) : Prop :=
  match o with
  | Tok ty b l _ => ty = SPACE /\ b = pos /\ j <= pos + l <= List.length buf /\
                    (space_cond buf j = true -> j < pos + l)
  | Diag _ => True
  | OutOfFuel => False
  end.

(** strictly: the token then ends beyond [j] whatever stands at [j] *)
Lemma space_tok_ok_lt : forall j' buf pos j o,
  j < j' -> space_tok_ok buf pos j' o -> space_tok_ok buf pos j o.
Proof.
  intros j' buf pos j [ty b l p| |] Hj; cbn; auto.
  intros (Ht & Hb & Hbd & _). repeat split; auto; lia.
Qed.

Lemma scan_space_loop_ok : forall fuel buf pos,
  List.length buf < fuel -> forall n j, pos <= j -> j <= List.length buf < j + n ->
  space_tok_ok buf pos j (scan_space_loop skip_line n fuel buf pos j).
Proof.
  intros fuel buf pos Hfuel. induction n as [|n IH]; intros j Hpj Hj; [lia|].
  cbn [scan_space_loop].
  destruct (space_cond buf j) eqn:Ec.
  2:{ cbn [space_tok_ok]. rewrite Ec. repeat split; (lia || discriminate). }
  destruct (skip_char_ok fuel buf j 32) as (j1 & H1 & B1 & S1); [lia|]. rewrite H1.
  destruct (skip_char_ok fuel buf j1 9) as (j2 & H2 & B2 & S2); [lia|]. rewrite H2.
  destruct (if is_string_at buf j2 slash_star then _ else _) as [j3|] eqn:E3; [|exact I].
  apply after_block_ok in E3; [|lia]. destruct E3 as [B3 S3].
  (* a round that starts on space ends strictly further on: each of the four steps moves on if
     its own condition holds where it starts *)
  assert (Hstrict : forall j4, j3 <= j4 ->
            (is_string_at buf j3 slash_slash = true -> j3 < j4) -> j < j4).
  { intros j4 Hle Hsl.
    destruct (Nat.eq_dec j j4) as [->|Hne]; [exfalso|lia].
    assert (j1 = j4 /\ j2 = j4 /\ j3 = j4) as (-> & -> & ->) by lia.
    unfold space_cond in Ec.
    destruct (is_char_at buf j4 32); [specialize (S1 eq_refl); lia|].
    destruct (is_char_at buf j4 9); [specialize (S2 eq_refl); lia|].
    destruct (is_string_at buf j4 slash_star); [specialize (S3 eq_refl); lia|].
    destruct (is_string_at buf j4 slash_slash); [specialize (Hsl eq_refl); lia|].
    discriminate. }
  destruct (is_string_at buf j3 slash_slash) eqn:Esl.
  - destruct (skip_line_ok fuel buf j3) as (j4 & H4 & B4 & S4); [lia|]. rewrite H4.
    specialize (Hstrict j4 (proj1 B4) (fun _ => S4 Esl)).
    apply (space_tok_ok_lt j4); [exact Hstrict|]. apply IH; lia.
  - specialize (Hstrict j3 (le_n _) ltac:(discriminate)).
    apply (space_tok_ok_lt j3); [exact Hstrict|]. apply IH; lia.
Qed.

Definition loop_tok_ok (buf : bytes) (ty0 : ttype) (pos m : nat) (o : outcome) : Prop :=
  match o with
  | Tok ty b l _ => ty = ty0 /\ b = pos /\ m <= l /\ pos + l <= List.length buf
  | Diag _ => True
  | OutOfFuel => False
  end.

Lemma loop_tok_ok_le : forall m' buf ty pos m o,
  m <= m' -> loop_tok_ok buf ty pos m' o -> loop_tok_ok buf ty pos m o.
Proof.
  intros m' buf ty pos m [ty' b l p| |] Hm; cbn; auto.
  intros (Ht & Hb & Hl & Hbd). repeat split; auto; lia.
Qed.

Lemma loop_tok_here : forall buf ty pos m l p,
  pos + m <= pos + l <= List.length buf -> loop_tok_ok buf ty pos m (Tok ty pos l p).
Proof. cbn. intros. repeat split; lia. Qed.

Lemma scan_ident_loop_ok : forall fuel buf pos i,
  pos + i <= List.length buf < pos + i + fuel ->
  loop_tok_ok buf IDENTIFIER pos i (scan_ident_loop fuel buf pos i).
Proof.
  induction fuel as [|f IH]; intros buf pos i Hf; [lia|].
  cbn [scan_ident_loop].
  destruct (pos + i =? List.length buf) eqn:Ee; [apply loop_tok_here; lia|].
  apply Nat.eqb_neq in Ee.
  destruct (nth_error buf (pos + i)) as [c|]; [|exact I].
  destruct (is_alnum c || (c =? 95)); [|apply loop_tok_here; lia].
  apply (loop_tok_ok_le (S i)); [|apply IH]; lia.
Qed.

(** [c] is the byte at [pos+i]: if it is a digit the token extends over it *)
Lemma scan_int_loop_ok : forall fuel buf pos i n c,
  nth_error buf (pos + i) = Some c -> List.length buf <= pos + i + fuel ->
  loop_tok_ok buf INT_IMM pos (if is_number c then S i else i) (scan_int_loop fuel buf pos i n c).
Proof.
  induction fuel as [|f IH]; intros buf pos i n c Hc Hf; pose proof (nth_some_lt _ _ _ Hc) as Hlt; [lia|].
  cbn [scan_int_loop].
  destruct (is_number c); [|apply loop_tok_here; lia].
  destruct (nth_error buf (pos + S i)) as [c'|] eqn:Ec'; [|exact I].
  apply (loop_tok_ok_le (if is_number c' then S (S i) else S i)); [destruct (is_number c'); lia|].
  apply IH; [exact Ec'|lia].
Qed.

(** the string scanners: [i] is the offset of the next byte, the closing quote is still to come; every
    round goes on at a later offset with one unit of fuel less *)
Lemma string_loop_rec : forall (loop : nat -> bytes -> nat -> nat -> bytes -> outcome) f buf pos i,
  (forall buf pos i acc, pos + i <= List.length buf < pos + i + f ->
     loop_tok_ok buf STRING pos (S i) (loop f buf pos i acc)) ->
  List.length buf < pos + i + S f ->
  forall i' acc, pos + i < pos + i' <= List.length buf ->
    loop_tok_ok buf STRING pos (S i) (loop f buf pos i' acc).
Proof.
  intros loop f buf pos i IH Hf i' acc Hi. apply (loop_tok_ok_le (S i')); [|apply IH]; lia.
Qed.

Lemma scan_string_loop_ok : forall fuel buf pos i acc,
  pos + i <= List.length buf < pos + i + fuel ->
  loop_tok_ok buf STRING pos (S i) (scan_string_loop fuel buf pos i acc).
Proof.
  induction fuel as [|f IH]; intros buf pos i acc Hf; [lia|].
  pose proof (string_loop_rec _ f buf pos i IH (proj2 Hf)) as Hrec.
  cbn [scan_string_loop].
  destruct (pos + i =? List.length buf) eqn:Ee; [exact I|]. apply Nat.eqb_neq in Ee.
  destruct (nth_error buf (pos + i)) as [c|]; [|exact I].
  destruct (c =? 34); [apply loop_tok_here; lia|].
  destruct (c =? 92).
  - destruct (pos + S i =? List.length buf) eqn:Ee2; [exact I|]. apply Nat.eqb_neq in Ee2.
    destruct (nth_error buf (pos + S i)); [|exact I].
    apply Hrec; lia.
  - destruct (c =? 10); [apply Hrec; lia|].
    destruct (bom_at buf (pos + i)) eqn:Eb; [apply bom_at_inside in Eb|]; apply Hrec; lia.
Qed.

Lemma scan_raw_loop_ok : forall fuel buf pos i acc,
  pos + i <= List.length buf < pos + i + fuel ->
  loop_tok_ok buf STRING pos (S i) (scan_raw_loop fuel buf pos i acc).
Proof.
  induction fuel as [|f IH]; intros buf pos i acc Hf; [lia|].
  pose proof (string_loop_rec _ f buf pos i IH (proj2 Hf)) as Hrec.
  cbn [scan_raw_loop].
  destruct (pos + i =? List.length buf) eqn:Ee; [exact I|]. apply Nat.eqb_neq in Ee.
  destruct (nth_error buf (pos + i)) as [c|]; [|exact I].
  destruct (c =? 96); [apply loop_tok_here; lia|].
  destruct (c =? 92); [apply Hrec; lia|].
  destruct (c =? 34); [apply Hrec; lia|].
  destruct (c =? 10); [apply Hrec; lia|].
  destruct (bom_at buf (pos + i)) eqn:Eb; [apply bom_at_inside in Eb|]; apply Hrec; lia.
Qed.

(** what a successful scan at [pos] looks like: the token starts at [pos] — or at [pos+1] for an
    interpolated string, whose token excludes the dollar sign —, is not empty and lies inside
    the buffer *)
Definition scan_ok (buf : bytes) (pos : nat) (o : outcome) : Prop :=
  match o with
  | Tok ty b l _ => ty <> EOF /\ (b = pos \/ (ty = SINTERP /\ b = S pos)) /\ 0 < l /\
                    b + l <= List.length buf
  | Diag _ => True
  | OutOfFuel => False
  end.

Lemma scan_ok_here : forall buf pos ty l p,
  ty <> EOF -> pos < pos + l <= List.length buf -> scan_ok buf pos (Tok ty pos l p).
Proof. cbn. intros. repeat split; auto; lia. Qed.

Lemma one_char_ok : forall buf pos ty b,
  ty <> EOF -> pos < List.length buf -> scan_ok buf pos (one_char ty pos b).
Proof. intros. apply scan_ok_here; [assumption|cbn; lia]. Qed.

Lemma st_like_ok : forall buf pos ty a c,
  ty <> EOF -> is_char_at buf (pos + 1) c = true -> scan_ok buf pos (st_like ty pos [a; c]).
Proof.
  intros buf pos ty a c Ht H. apply is_char_at_true_lt in H. apply scan_ok_here; [assumption|cbn; lia].
Qed.

Lemma space_leaf : forall fuel buf pos,
  List.length buf < fuel -> pos < List.length buf -> space_cond buf pos = true ->
  scan_ok buf pos (scan_space fuel buf pos).
Proof.
  intros fuel buf pos Hf Hp Hc.
  pose proof (scan_space_loop_ok fuel buf pos Hf fuel pos (le_n _) ltac:(lia)) as H.
  fold (scan_space fuel buf pos) in H.
  destruct (scan_space fuel buf pos); [|exact H..].
  destruct H as (-> & -> & Hbd & Hs). specialize (Hs Hc).
  apply scan_ok_here; [discriminate|lia].
Qed.

Lemma space_cond_blank : forall buf pos b,
  nth_error buf pos = Some b -> (b =? 32) || (b =? 9) = true -> space_cond buf pos = true.
Proof.
  intros buf pos b Eb H. unfold space_cond, is_char_at. rewrite Eb.
  destruct (b =? 32); [reflexivity|]. cbn in H. rewrite H. apply orb_true_r.
Qed.

Lemma space_cond_comment : forall buf pos b,
  nth_error buf pos = Some b -> (b =? 47) = true ->
  is_char_at buf (pos + 1) 42 || is_char_at buf (pos + 1) 47 = true -> space_cond buf pos = true.
Proof.
  intros buf pos b Eb Hb H. unfold space_cond, slash_star, slash_slash. cbn [is_string_at].
  rewrite Eb, Hb. rewrite Nat.add_1_r in H.
  apply orb_true_iff in H. destruct H as [C|C]; apply is_char_at_true_nth in C; rewrite C; cbn;
    rewrite ?orb_true_r; reflexivity.
Qed.

Lemma lookup_keyword_in : forall tbl s kw, lookup_keyword tbl s = Some kw -> In kw (map snd tbl).
Proof.
  induction tbl as [|[k t] tbl IH]; intros s kw H; cbn [lookup_keyword] in H; [discriminate|].
  destruct (bytes_eqb k s).
  - inversion H; subst. left. reflexivity.
  - right. eapply IH; eauto.
Qed.

Lemma keyword_not_eof : forall s, lookup_keyword keyword_table s <> Some EOF.
Proof.
  intros s H. apply lookup_keyword_in in H. cbv in H.
  repeat (destruct H as [H|H]; [discriminate|]). exact H.
Qed.

Lemma ident_leaf : forall fuel buf pos,
  List.length buf < fuel -> pos < List.length buf ->
  scan_ok buf pos (keywordize (scan_ident fuel buf pos)).
Proof.
  intros fuel buf pos Hf Hp. unfold scan_ident.
  pose proof (scan_ident_loop_ok fuel buf pos 1 ltac:(lia)) as H.
  destruct (scan_ident_loop fuel buf pos 1) as [ty b l p| |]; [|exact H..].
  destruct H as (-> & -> & Hl & Hbd).
  (* whatever type the keyword table gives, it is not EOF *)
  assert (Hkw : forall ty, ty <> EOF -> scan_ok buf pos (Tok ty pos l p))
    by (intros; apply scan_ok_here; [assumption|lia]).
  destruct p as [|s|]; cbn [keywordize]; try (apply Hkw; discriminate).
  pose proof (keyword_not_eof s) as Hk.
  destruct (lookup_keyword keyword_table s); apply Hkw; congruence.
Qed.

Lemma int_leaf : forall fuel buf pos b,
  List.length buf < fuel -> nth_error buf pos = Some b -> is_number b = true ->
  scan_ok buf pos (scan_int fuel buf pos).
Proof.
  intros fuel buf pos b Hf Hb Hn. unfold scan_int. rewrite Hb.
  pose proof (scan_int_loop_ok fuel buf pos 0 0%Z b) as H. rewrite Nat.add_0_r, Hn in H.
  specialize (H Hb ltac:(lia)).
  destruct (scan_int_loop fuel buf pos 0 0 b); [|exact H..].
  destruct H as (-> & -> & Hl & Hbd). apply scan_ok_here; [discriminate|lia].
Qed.

Lemma string_tok_scan_ok : forall buf pos o,
  loop_tok_ok buf STRING pos 2 o -> scan_ok buf pos o.
Proof.
  intros buf pos [ty b l p| |]; [|exact id..].
  intros (-> & -> & Hl & Hbd). apply scan_ok_here; [discriminate|lia].
Qed.

(** [$"…"] and [$`…`]: the string token that begins after the dollar sign, retyped *)
Lemma sinterp_tok_scan_ok : forall buf pos o,
  loop_tok_ok buf STRING (pos + 1) 2 o -> scan_ok buf pos (retype SINTERP o).
Proof.
  intros buf pos [ty b l p| |]; cbn; auto.
  intros (-> & -> & Hl & Hbd). split; [discriminate|]. split; [right; split; [reflexivity|lia]|lia].
Qed.

Lemma scan_ok_if : forall buf pos (c : bool) x y,
  (c = true -> scan_ok buf pos x) -> (c = false -> scan_ok buf pos y) ->
  scan_ok buf pos (if c then x else y).
Proof. intros buf pos [] x y Hx Hy; auto. Qed.

(** [name_tails t k] gives a name to every else-branch of the if-chain [t], innermost first, and hands
    the name of [t] itself to [k]. Walking the chain by [scan_ok_if] then mentions the rest of the chain by
    name; otherwise each step's proof term repeats the whole rest, byte codes in unary included. *)
Ltac name_tails t k :=
  lazymatch t with
  | if ?c then ?x else ?y =>
    name_tails y ltac:(fun y' => let r := fresh "rest" in pose (r := if c then x else y'); k r)
  | _ => k t
  end.

Lemma scan_token_at_ok : forall fuel buf pos,
  List.length buf < fuel -> pos < List.length buf ->
  scan_ok buf pos (scan_token_at fuel buf pos).
Proof.
  intros fuel buf pos Hf Hp. unfold scan_token_at.
  rewrite (proj2 (Nat.eqb_neq pos _)) by lia.
  destruct (nth_error buf pos) as [b|] eqn:Eb; [|apply nth_error_None in Eb; lia].
  match goal with |- scan_ok _ _ ?t => name_tails t ltac:(fun r => change (scan_ok buf pos r)) end.
  repeat (try match goal with |- scan_ok _ _ ?r => is_var r; unfold r end; apply scan_ok_if; intros ?);
    try exact I;
    try (apply one_char_ok; [discriminate|exact Hp]);
    try (eapply st_like_ok; [discriminate|eassumption]).
  - (* a blank *)
    apply space_leaf; [assumption..|]. eapply space_cond_blank; eassumption.
  - (* a slash that opens a comment *)
    apply space_leaf; [assumption..|]. eapply space_cond_comment; eassumption.
  - apply ident_leaf; assumption.
  - eapply int_leaf; eassumption.
  - apply string_tok_scan_ok, scan_string_loop_ok. lia.
  - apply string_tok_scan_ok, scan_raw_loop_ok. lia.
  - (* a dollar sign and a quote *)
    apply sinterp_tok_scan_ok, scan_string_loop_ok.
    enough (pos + 1 < List.length buf) by lia. eapply is_char_at_true_lt; eassumption.
  - (* a dollar sign and a backquote *)
    apply sinterp_tok_scan_ok, scan_raw_loop_ok.
    enough (pos + 1 < List.length buf) by lia. eapply is_char_at_true_lt; eassumption.
Qed.

Lemma scan_token_at_end : forall fuel buf,
  scan_token_at fuel buf (List.length buf) = Tok EOF (List.length buf) 0 PNone.
Proof. intros. unfold scan_token_at. now rewrite Nat.eqb_refl. Qed.

(** C16 scanner totality: with fuel length+1, scanning at any position of the buffer yields EOF
    (exactly at the end), a diagnostic, or a non-empty token inside the buffer that begins at
    [pos] (at [pos+1] for an interpolated string) — never OutOfFuel. *)
Theorem scan_total : forall buf pos,
  pos <= List.length buf ->
  (pos = List.length buf /\ scan_token_at (S (List.length buf)) buf pos = Tok EOF pos 0 PNone)
  \/ (pos < List.length buf /\ scan_ok buf pos (scan_token_at (S (List.length buf)) buf pos)).
Proof.
  intros buf pos Hp. destruct (Nat.eq_dec pos (List.length buf)) as [->|E].
  - left. split; [reflexivity|apply scan_token_at_end].
  - right. split; [lia|]. apply scan_token_at_ok; lia.
Qed.

(** a result of nextToken from position [p]: the EOF token at the end of the buffer, a diagnostic,
    or a non-SPACE, non-empty token that starts at or after [p] and lies inside the buffer *)
Definition next_ok (buf : bytes) (p : nat) (o : outcome) : Prop :=
  match o with
  | Tok ty b l _ =>
    (ty = EOF /\ b = List.length buf /\ l = 0) \/
    (ty <> EOF /\ ty <> SPACE /\ p <= b /\ 0 < l /\ b + l <= List.length buf)
  | Diag _ => True
  | OutOfFuel => False
  end.

Lemma next_token_loop_tok : forall n fuel buf ty b l pl,
  next_token_loop (S n) fuel buf (Tok ty b l pl) =
  next_token_loop n fuel buf (scan_token_at fuel buf (b + l)) /\ ty = SPACE
  \/ next_token_loop (S n) fuel buf (Tok ty b l pl) = Tok ty b l pl /\ ty <> SPACE.
Proof. intros. destruct ty; (left; split; reflexivity) || (right; split; [reflexivity|discriminate]). Qed.

Lemma next_token_loop_ok : forall n fuel buf q p,
  List.length buf < fuel -> p <= q -> q <= List.length buf -> List.length buf - q < n ->
  next_ok buf p (next_token_loop n fuel buf (scan_token_at fuel buf q)).
Proof.
  induction n as [|n IH]; intros fuel buf q p Hf Hpq Hq Hn; [lia|].
  destruct (Nat.eq_dec q (List.length buf)) as [->|E].
  - rewrite scan_token_at_end. cbn. auto.
  - pose proof (scan_token_at_ok fuel buf q Hf ltac:(lia)) as H.
    destruct (scan_token_at fuel buf q) as [ty b l pl| |]; cbn [scan_ok] in H; [|exact I|contradiction].
    destruct H as (Hne & Hb & Hl & Hbd).
    destruct (next_token_loop_tok n fuel buf ty b l pl) as [[-> ->]|[-> Hsp]].
    + (* SPACE is no SINTERP, so it began at [q]: scan again at its end *)
      destruct Hb as [->|[Hx _]]; [apply IH; lia|discriminate].
    + right. repeat split; auto; destruct Hb as [->|[_ ->]]; lia.
Qed.

(** C16 progress of nextToken: never OutOfFuel, and any token other than EOF ends strictly after
    the position it was asked to continue from *)
Theorem next_token_progress : forall buf p,
  next_ok buf p (next_token (S (List.length buf)) buf p).
Proof.
  intros buf p. unfold next_token.
  destruct (List.length buf <=? p) eqn:E.
  - cbn. auto.
  - apply Nat.leb_gt in E. apply next_token_loop_ok; lia.
Qed.

Lemma tokenize_tok {s fuel buf p acc ty b l pl} :
  next_token fuel buf p = Tok ty b l pl -> ty <> EOF ->
  tokenize (S s) fuel buf p acc = tokenize s fuel buf (b + l) ((ty, b, l, pl) :: acc).
Proof.
  intros H Hne. cbn [tokenize]. rewrite H.
  destruct ty; reflexivity || now elim Hne.
Qed.

Lemma tokenize_ok : forall steps buf p acc,
  List.length buf - p < steps ->
  match tokenize steps (S (List.length buf)) buf p acc with
  | TDone _ | TDiag _ _ => True
  | TOutOfFuel | TOutOfSteps => False
  end.
Proof.
  induction steps as [|s IH]; intros buf p acc Hs; [lia|].
  pose proof (next_token_progress buf p) as H.
  destruct (next_token (S (List.length buf)) buf p) as [ty b l pl| |] eqn:En; cbn [next_ok] in H.
  - destruct H as [(-> & _)|(Hne & _ & Hpb & Hl & Hbd)].
    + cbn [tokenize]. rewrite En. exact I.
    + rewrite (tokenize_tok En Hne). apply IH. lia.
  - cbn [tokenize]. rewrite En. exact I.
  - contradiction.
Qed.

(** C16 tokenizer termination: iterating nextToken from any position reaches EOF or a diagnostic
    within (length buf + 1) tokens *)
Theorem tokenize_terminates : forall buf p acc,
  match tokenize (S (List.length buf)) (S (List.length buf)) buf p acc with
  | TDone _ | TDiag _ _ => True
  | TOutOfFuel | TOutOfSteps => False
  end.
Proof. intros. apply tokenize_ok. lia. Qed.

Lemma reinterpret_loop_ok : forall fuel buf i acc,
  i <= List.length buf < i + fuel ->
  reinterpret_loop fuel buf i acc <> EOutOfFuel.
Proof.
  induction fuel as [|f IH]; intros buf i acc Hf; [lia|].
  cbn [reinterpret_loop].
  destruct (i =? List.length buf) eqn:E; [discriminate|]. apply Nat.eqb_neq in E.
  destruct (nth_error buf i) as [c|] eqn:En; [|discriminate].
  destruct (c =? 92).
  - destruct (S i =? List.length buf) eqn:E2; [discriminate|]. apply Nat.eqb_neq in E2.
    destruct (nth_error buf (S i)) as [c2|] eqn:En2; [|discriminate].
    apply IH; lia.
  - apply IH; lia.
Qed.

Theorem reinterpret_escape_total : forall buf,
  reinterpret_escape (S (List.length buf)) buf <> EOutOfFuel.
Proof. intros. unfold reinterpret_escape. apply reinterpret_loop_ok; lia. Qed.

Lemma find_close_ok : forall fuel buf i,
  List.length buf - i < fuel ->
  match find_close fuel buf i with
  | CFound e => i <= e < List.length buf
  | CDiag _ => True
  | COutOfFuel => False
  end.
Proof.
  induction fuel as [|f IH]; intros buf i Hf; [lia|].
  cbn [find_close].
  destruct (nth_error buf i) as [c|] eqn:En; [|exact I].
  pose proof (nth_some_lt _ _ _ En) as Hlt.
  destruct (c =? 125); [lia|].
  destruct (S i =? List.length buf) eqn:E; [exact I|]. apply Nat.eqb_neq in E.
  specialize (IH buf (S i) ltac:(lia)).
  destruct (find_close f buf (S i)); auto. lia.
Qed.

Lemma parse_sinterp_loop_ok : forall fuel buf,
  List.length buf < fuel -> forall n i res vars, List.length buf - i < n ->
  parse_sinterp_loop n fuel buf i res vars <> SOutOfFuel.
Proof.
  intros fuel buf Hf. induction n as [|n IH]; intros i res vars Hn; [lia|].
  cbn [parse_sinterp_loop].
  destruct (i <? List.length buf) eqn:E; [|discriminate]. apply Nat.ltb_lt in E.
  destruct (nth_error buf i) as [c|] eqn:En; [|discriminate].
  destruct (c =? 92).
  { destruct (S i =? List.length buf); [discriminate|].
    destruct (nth_error buf (S i)) as [c2|]; [|discriminate].
    destruct ((c2 =? 123) || (c2 =? 125)); apply IH; lia. }
  destruct (c =? 123).
  { pose proof (find_close_ok fuel buf (S i) ltac:(lia)) as H.
    destruct (find_close fuel buf (S i)); [|discriminate|contradiction].
    apply IH; lia. }
  destruct (c =? 37); apply IH; lia.
Qed.

(** C16 ParseSInterP totality: a format with its variables, or a diagnostic — never OutOfFuel *)
Theorem parse_sinterp_total : forall buf,
  match parse_sinterp (S (List.length buf)) buf with
  | SOk _ _ | SDiag _ => True
  | SOutOfFuel => False
  end.
Proof.
  intros buf. pose proof (parse_sinterp_loop_ok _ buf (Nat.lt_succ_diag_r _) (S (List.length buf)) 0 [] []) as H.
  unfold parse_sinterp. destruct (parse_sinterp_loop _ _ buf 0 [] []); auto.
  apply H; [lia|reflexivity].
Qed.

Definition eof_comment : bytes := [47; 47; 120].     (* the three bytes //x, no newline *)

Lemma skip_line_old_eof_comment : forall fuel j, skip_line_old fuel eof_comment j = None.
Proof.
  induction fuel as [|f IH]; intros j; [reflexivity|].
  cbn [skip_line_old].
  assert (E : is_char_at eof_comment j 10 = false).
  { destruct j as [|[|[|j]]]; try reflexivity. unfold is_char_at, eof_comment. cbn.
    destruct j; reflexivity. }
  rewrite E. cbn [negb]. apply IH.
Qed.

(** the scanner before commit 454a055 (no end-of-buffer guard in the line-comment loop): on a buffer
    that ends inside a line comment every amount of fuel runs out — the loop never ends *)
Theorem scan_space_old_eof_comment_refuted :
  exists buf, forall fuel, scan_space_old fuel buf 0 = OutOfFuel.
Proof.
  exists eof_comment. intros fuel. unfold scan_space_old.
  destruct fuel as [|f]; [reflexivity|].
  (* one round: no blanks, no block comment, then the line comment's loop *)
  simpl. rewrite skip_line_old_eof_comment. reflexivity.
Qed.

(** the same buffer on [scan_space]: one SPACE token of length 3 *)
Example scan_space_eof_comment_now :
  scan_space 4 eof_comment 0 = Tok SPACE 0 3 PNone.
Proof. reflexivity. Qed.
