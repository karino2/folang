(** C08, token level: a surface syntax for what the user writes (terms, application, parentheses,
    [not], newlines before an operator), its token string [flat_expr], and its denotation
    [den_expr], which groups the operands of every chain with the chain-level function
    [parse_chain] (BinOpProofs.parse_chain_correct).  [parse_expr_flatten]: on the token string of a
    well-formed surface expression, followed by anything that does not continue it, the
    transcription of parseExprWithPrec (Front/BinOp.v) returns exactly the denotation and the
    continuation, for every fuel >= 3 * (token count) + 2. *)
From Coq Require Import List Arith Lia Bool.
From FoVerif Require Import Front.BinOp Front.BinOpProofs.
Import ListNotations.

Inductive sexpr := SE (t : sterm) (r : srest)
with srest := SNil | SCons (eols : nat) (o : optok) (t : sterm) (r : srest)   (* eols newlines, operator, term *)
with sterm := STNot (t : sterm) | STApp (a : satom) (args : sargs)
with sargs := ANil | ACons (a : satom) (args : sargs)
with satom := SAId (n : nat) | SAParen (e : sexpr) | SAUnit.

Scheme sexpr_mind := Induction for sexpr Sort Prop
  with srest_mind := Induction for srest Sort Prop
  with sterm_mind := Induction for sterm Sort Prop
  with sargs_mind := Induction for sargs Sort Prop
  with satom_mind := Induction for satom Sort Prop.
Combined Scheme surface_mutind from sexpr_mind, srest_mind, sterm_mind, sargs_mind, satom_mind.

Fixpoint flat_expr (e : sexpr) : list tok :=
  match e with SE t r => flat_term t ++ flat_rest r end
with flat_rest (r : srest) : list tok :=
  match r with
  | SNil => []
  | SCons n o t r => repeat TEOL n ++ TOp o :: flat_term t ++ flat_rest r
  end
with flat_term (t : sterm) : list tok :=
  match t with
  | STNot t => TNot :: flat_term t
  | STApp a args => flat_atom a ++ flat_args args
  end
with flat_args (args : sargs) : list tok :=
  match args with
  | ANil => []
  | ACons a args => flat_atom a ++ flat_args args
  end
with flat_atom (a : satom) : list tok :=
  match a with
  | SAId n => [TId n]
  | SAParen e => TLParen :: flat_expr e ++ [TRParen]
  | SAUnit => [TLParen; TRParen]
  end.

(** well-formedness: the head of an application with at least one argument is an identifier
    (parseTerm's "Funcall head is not var") *)
Definition head_ok (a : satom) (args : sargs) : Prop :=
  match args with
  | ANil => True
  | ACons _ _ => match a with SAId _ => True | _ => False end
  end.

Fixpoint wf_expr (e : sexpr) : Prop :=
  match e with SE t r => wf_term t /\ wf_rest r end
with wf_rest (r : srest) : Prop :=
  match r with SNil => True | SCons _ _ t r => wf_term t /\ wf_rest r end
with wf_term (t : sterm) : Prop :=
  match t with
  | STNot t => wf_term t
  | STApp a args => wf_atom a /\ wf_args args /\ head_ok a args
  end
with wf_args (args : sargs) : Prop :=
  match args with ANil => True | ACons a args => wf_atom a /\ wf_args args end
with wf_atom (a : satom) : Prop :=
  match a with SAId _ => True | SAParen e => wf_expr e | SAUnit => True end.

Fixpoint te (t : tree expr) : expr :=
  match t with Leaf e => e | Node o l r => EBin o (te l) (te r) end.

(** total version of parse_chain (the None branch is impossible: [chain_tree_some]) *)
Definition chain_tree (a0 : expr) (r : list (optok * expr)) : tree expr :=
  match parse_chain a0 r with Some t => t | None => Leaf a0 end.

Lemma chain_tree_some a0 r : parse_chain a0 r = Some (chain_tree a0 r).
Proof.
  unfold chain_tree. destruct (parse_chain_correct expr a0 r) as (t & -> & _). reflexivity.
Qed.

Lemma chain_tree_spec a0 r :
  wg (chain_tree a0 r) /\ first_atom (chain_tree a0 r) = a0 /\ tail_chain (chain_tree a0 r) = r /\
  forall t', wg t' -> first_atom t' = a0 -> tail_chain t' = r -> t' = chain_tree a0 r.
Proof.
  unfold chain_tree. destruct (parse_chain_correct expr a0 r) as (t & -> & H). exact H.
Qed.

Fixpoint den_expr (e : sexpr) : expr :=
  match e with SE t r => te (chain_tree (den_term t) (den_rest r)) end
with den_rest (r : srest) : list (optok * expr) :=
  match r with SNil => [] | SCons _ o t r => (o, den_term t) :: den_rest r end
with den_term (t : sterm) : expr :=
  match t with
  | STNot t => ENot (den_term t)
  | STApp a args =>
    match args with
    | ANil => den_atom a
    | ACons _ _ => EApp (den_atom a) (den_args args)
    end
  end
with den_args (args : sargs) : list expr :=
  match args with ANil => [] | ACons a args => den_atom a :: den_args args end
with den_atom (a : satom) : expr :=
  match a with
  | SAId n => EAtom n
  | SAParen e => den_expr e        (* explicit parentheses: one operand of the enclosing chain *)
  | SAUnit => EUnit
  end.

(** the continuation does not continue the expression: after skipping newlines there is nothing, a
    closing parenthesis, or another terminator (; } ] with then else , EOF) *)
Definition stops (k : list tok) : Prop :=
  match skip_eol k with
  | [] | TRParen :: _ | TEnd _ :: _ => True
  | _ => False
  end.

Lemma stops_nil : stops []. Proof. exact I. Qed.
Lemma stops_end n k : stops (TEnd n :: k). Proof. exact I. Qed.
Lemma stops_rparen k : stops (TRParen :: k). Proof. exact I. Qed.
Lemma stops_eol k : stops k -> stops (TEOL :: k). Proof. exact (fun H => H). Qed.

Lemma stops_eot k : stops k -> is_end_of_term k = true.
Proof. unfold stops. destruct k as [|[] k']; cbn; intros H; try reflexivity; contradiction. Qed.

(* [simpl]/[cbn] leave the mutual fixpoint unfolded: one step of each function, by computation *)
Lemma parse_expr_S m minp ts :
  parse_expr (S m) minp ts =
  match parse_term m ts with
  | POk e r =>
    match skip_eol r with
    | TOp _ :: _ => bin_after m minp (skip_eol r) e
    | _ => POk e r
    end
  | x => x
  end.
Proof. reflexivity. Qed.

Lemma bin_after_S m minp ts cur :
  bin_after (S m) minp ts cur =
  match skip_eol ts with
  | TOp o :: r =>
    if rank o <? minp then POk cur ts
    else match parse_expr m (S (rank o)) r with
         | POk rhs r' => bin_after m minp r' (EBin o cur rhs)
         | x => x
         end
  | _ => POk cur ts
  end.
Proof. reflexivity. Qed.

Lemma parse_atoms_S m ts :
  parse_atoms (S m) ts =
  match parse_atom m ts with
  | POk e r =>
    if is_end_of_term r then Some (Some ([e], r))
    else match parse_atoms m r with
         | Some (Some (es, r')) => Some (Some (e :: es, r'))
         | x => x
         end
  | PErr => Some None
  | PFuel => None
  end.
Proof. reflexivity. Qed.

Lemma parse_term_not m ts :
  parse_term (S m) (TNot :: ts) =
  match parse_term m ts with POk e r' => POk (ENot e) r' | x => x end.
Proof. reflexivity. Qed.

(** an atom begins with an identifier or '(', an expression with one of these or [not] *)
Lemma parse_term_atom m a x :
  parse_term (S m) (flat_atom a ++ x) =
  match parse_atoms m (flat_atom a ++ x) with
  | Some (Some (e :: nil, r)) => POk e r
  | Some (Some (h :: args, r)) =>
    match h with EAtom _ => POk (EApp h args) r | _ => PErr end
  | Some (Some (nil, _)) => PErr
  | Some None => PErr
  | None => PFuel
  end.
Proof. destruct a; reflexivity. Qed.

Lemma eot_flat_atom a x : is_end_of_term (flat_atom a ++ x) = false.
Proof. destruct a; reflexivity. Qed.

Lemma parse_atom_paren m e x :
  parse_atom (S m) (TLParen :: flat_expr e ++ x) =
  match parse_expr m 1 (flat_expr e ++ x) with
  | POk e (TRParen :: r') => POk e r'
  | POk _ _ => PErr
  | x => x
  end.
Proof. destruct e as [[t|[] args] r]; reflexivity. Qed.

Lemma skip_eol_repeat n x : skip_eol (repeat TEOL n ++ x) = skip_eol x.
Proof. induction n as [|n IH]; cbn; auto. Qed.

Lemma skip_eol_idem ts : skip_eol (skip_eol ts) = skip_eol ts.
Proof. induction ts as [|[] ts IH]; cbn; auto. Qed.

Lemma skip_flat_rest_cons n o t r k :
  skip_eol (flat_rest (SCons n o t r) ++ k) = TOp o :: flat_term t ++ flat_rest r ++ k.
Proof.
  cbn [flat_rest]. rewrite <- app_assoc, skip_eol_repeat. cbn [app skip_eol].
  rewrite <- app_assoc. reflexivity.
Qed.

Lemma eot_flat_rest r k : stops k -> is_end_of_term (flat_rest r ++ k) = true.
Proof.
  intros Hk. destruct r as [|n o t r]; [exact (stops_eot k Hk)|].
  cbn [flat_rest]. destruct n; reflexivity.
Qed.

Definition atom_ok (a : satom) : Prop :=
  forall k m, m + 2 >= 3 * List.length (flat_atom a) ->
  parse_atom m (flat_atom a ++ k) = POk (den_atom a) k.

Definition term_ok (t : sterm) : Prop :=
  forall k m, is_end_of_term k = true -> m >= 3 * List.length (flat_term t) ->
  parse_term m (flat_term t ++ k) = POk (den_term t) k.

Fixpoint terms_ok (r : srest) : Prop :=
  match r with SNil => True | SCons _ _ t r => term_ok t /\ terms_ok r end.

Definition expr_ok (e : sexpr) : Prop :=
  forall k m, stops k -> m >= 3 * List.length (flat_expr e) + 2 ->
  parse_expr m 1 (flat_expr e ++ k) = POk (den_expr e) k.

Lemma length_flat_rest_cons n o t r :
  List.length (flat_rest (SCons n o t r)) = n + S (List.length (flat_term t) + List.length (flat_rest r)).
Proof. cbn [flat_rest]. rewrite app_length, repeat_length. cbn. rewrite app_length. reflexivity. Qed.

Lemma length_flat_atom a : 1 <= List.length (flat_atom a).
Proof. destruct a; cbn; lia. Qed.

Section Chain.
  Variable k : list tok.
  Hypothesis Hk : stops k.

  (** the token string that remains when the chain [r] remains: exactly [k] at the end, otherwise
      equal to the rest of the tokens up to leading newlines (parseBinAfter returns the state
      before its psSkipEOL, parseExprWithPrec calls it with the state after) *)
  Definition rem_ok (ts : list tok) (r : srest) : Prop :=
    match r with
    | SNil => ts = k
    | SCons _ _ _ _ => skip_eol ts = skip_eol (flat_rest r ++ k)
    end.

  Lemma bin_after_stop m minp cur : bin_after (S m) minp k cur = POk cur k.
  Proof.
    rewrite bin_after_S. unfold stops in Hk.
    destruct (skip_eol k) as [|[] ?]; try contradiction; reflexivity.
  Qed.

  (** the dispatch at the end of parseExprWithPrec is a call of parseBinAfter *)
  Lemma parse_expr_chain m minp t r : term_ok t -> m >= 3 * List.length (flat_term t) + 1 ->
    exists ts0, rem_ok ts0 r /\
    parse_expr (S m) minp (flat_term t ++ flat_rest r ++ k) = bin_after m minp ts0 (den_term t).
  Proof.
    intros Tt M. rewrite parse_expr_S, (Tt _ m (eot_flat_rest r k Hk)) by lia.
    destruct r as [|n o t' r].
    - exists k. split; [reflexivity|]. cbn [flat_rest app].
      destruct m as [|m]; [lia|]. rewrite bin_after_stop.
      unfold stops in Hk. destruct (skip_eol k) as [|[] ?]; try contradiction; reflexivity.
    - exists (skip_eol (flat_rest (SCons n o t' r) ++ k)). split; [apply skip_eol_idem|].
      rewrite skip_flat_rest_cons. reflexivity.
  Qed.

  Lemma climb_tokens : forall fuel minp (lhs : tree expr) r t rr',
    climb fuel minp lhs (den_rest r) = Some (t, rr') -> terms_ok r ->
    exists r', rr' = den_rest r' /\ terms_ok r' /\
    List.length (flat_rest r') <= List.length (flat_rest r) /\
    forall ts m, rem_ok ts r -> m >= 3 * List.length (flat_rest r) + 1 ->
    exists ts', rem_ok ts' r' /\ bin_after m minp ts (te lhs) = POk (te t) ts'.
  Proof.
    induction fuel as [|fuel IH]; intros minp lhs r t rr' H T; cbn [climb] in H; [discriminate|].
    destruct r as [|n o t0 r0]; cbn [den_rest] in H.
    - inversion H; subst. exists SNil. split; [reflexivity|]. split; [exact I|]. split; [lia|].
      intros ts m R M. cbn [rem_ok] in R. subst ts. exists k. split; [reflexivity|].
      destruct m as [|m]; [lia|]. apply bin_after_stop.
    - destruct (rank o <? minp) eqn:Lt.
      + inversion H; subst. exists (SCons n o t0 r0). split; [reflexivity|]. split; [exact T|]. split; [lia|].
        intros ts m R M. exists ts. split; [exact R|].
        destruct m as [|m]; [lia|]. rewrite bin_after_S.
        cbn [rem_ok] in R. rewrite R, skip_flat_rest_cons, Lt. reflexivity.
      + destruct (climb fuel (S (rank o)) (Leaf (den_term t0)) (den_rest r0)) as [[rhs rr1]|] eqn:C1;
          [|discriminate].
        destruct T as [T0 Tr0].
        destruct (IH _ _ _ _ _ C1 Tr0) as (r1 & -> & T1 & L1 & B1).
        destruct (IH _ _ _ _ _ H T1) as (r' & -> & T' & L' & B').
        exists r'. rewrite length_flat_rest_cons. split; [reflexivity|]. split; [exact T'|]. split; [lia|].
        intros ts m R M. destruct m as [|[|m]]; try lia. rewrite bin_after_S.
        cbn [rem_ok] in R. rewrite R, skip_flat_rest_cons, Lt.
        destruct (parse_expr_chain m (S (rank o)) t0 r0 T0 ltac:(lia)) as (ts0 & R0 & ->).
        destruct (B1 ts0 m R0 ltac:(lia)) as (ts1 & R1 & E1). cbn [te] in E1. rewrite E1.
        exact (B' ts1 (S m) R1 ltac:(lia)).
  Qed.

  Lemma chain_tokens t r m : term_ok t -> terms_ok r ->
    m >= 3 * (List.length (flat_term t) + List.length (flat_rest r)) + 2 ->
    parse_expr m 1 ((flat_term t ++ flat_rest r) ++ k)
    = POk (te (chain_tree (den_term t) (den_rest r))) k.
  Proof.
    intros Tt Tr M. unfold chain_tree, parse_chain.
    destruct (climb_whole expr (den_term t) (den_rest r)) as (tr & E & _). rewrite E.
    destruct (climb_tokens _ _ _ _ _ _ E Tr) as ([|] & E' & _ & _ & BA); [|discriminate E'].
    destruct m as [|m]; [lia|]. rewrite <- app_assoc.
    destruct (parse_expr_chain m 1 t r Tt ltac:(lia)) as (ts0 & R0 & ->).
    destruct (BA ts0 m R0 ltac:(lia)) as (ts' & -> & E2). exact E2.
  Qed.
End Chain.

Lemma surface_ok :
  (forall e, wf_expr e -> expr_ok e) /\
  (forall r, wf_rest r -> terms_ok r) /\
  (forall t, wf_term t -> term_ok t) /\
  (forall args, wf_args args -> forall a, atom_ok a -> forall k m,
     is_end_of_term k = true ->
     m + 1 >= 3 * (List.length (flat_atom a) + List.length (flat_args args)) ->
     parse_atoms m (flat_atom a ++ flat_args args ++ k)
     = Some (Some (den_atom a :: den_args args, k))) /\
  (forall a, wf_atom a -> atom_ok a).
Proof.
  apply surface_mutind.
  - (* SE *)
    intros t IHt r IHr [Wt Wr] k m Hk M. cbn [flat_expr den_expr] in *. rewrite app_length in M.
    apply chain_tokens; auto.
  - (* SNil *) intros _. exact I.
  - (* SCons *) intros n o t IHt r IHr [Wt Wr]. split; auto.
  - (* STNot *)
    intros t IHt Wt k m Hk M. cbn [flat_term den_term List.length app] in *.
    destruct m as [|m]; [lia|].
    rewrite parse_term_not, (IHt Wt k m Hk) by lia. reflexivity.
  - (* STApp *)
    intros a IHa args IHargs (Wa & Wargs & Hh) k m Hk M. cbn [flat_term] in *.
    rewrite app_length in M. pose proof (length_flat_atom a).
    destruct m as [|m]; [lia|]. rewrite <- app_assoc.
    rewrite parse_term_atom.
    rewrite (IHargs Wargs a (IHa Wa) k m Hk) by lia.
    destruct args as [|a' args']; [reflexivity|].
    destruct a as [n|e|]; cbn in Hh; try contradiction. reflexivity.
  - (* ANil *)
    intros _ a Ha k m Hk M. pose proof (length_flat_atom a). cbn [flat_args List.length] in M.
    destruct m as [|m]; [lia|]. cbn [flat_args den_args app].
    rewrite parse_atoms_S, (Ha k m) by lia. rewrite Hk. reflexivity.
  - (* ACons *)
    intros a' IHa' args IHargs [Wa' Wargs] a Ha k m Hk M. pose proof (length_flat_atom a).
    cbn [flat_args den_args] in *. rewrite app_length in M.
    destruct m as [|m]; [lia|].
    rewrite parse_atoms_S, (Ha _ m) by lia.
    rewrite <- app_assoc.
    rewrite eot_flat_atom.
    rewrite (IHargs Wargs a' (IHa' Wa') k m Hk) by lia. reflexivity.
  - (* SAId *) intros n _ k m M. destruct m as [|m]; [cbn in M; lia|]. reflexivity.
  - (* SAParen *)
    intros e IHe We k m M. cbn [flat_atom den_atom List.length] in *. rewrite app_length in M.
    cbn [List.length] in M. destruct m as [|m]; [lia|].
    change ((TLParen :: flat_expr e ++ [TRParen]) ++ k) with (TLParen :: (flat_expr e ++ [TRParen]) ++ k).
    rewrite <- app_assoc. cbn [app].
    rewrite parse_atom_paren.
    rewrite (IHe We (TRParen :: k) m (stops_rparen k)) by lia. reflexivity.
  - (* SAUnit *) intros _ k m M. destruct m as [|m]; [cbn in M; lia|]. reflexivity.
Qed.

Theorem parse_expr_flatten e : wf_expr e ->
  forall k, stops k ->
  forall fuel, fuel >= 3 * List.length (flat_expr e) + 2 ->
  parse_expr fuel 1 (flat_expr e ++ k) = POk (den_expr e) k.
Proof. intros W k Hk fuel. exact (proj1 surface_ok e W k fuel Hk). Qed.

(** the same without the concrete bound: some fuel works, and then every larger one *)
Corollary parse_tokens_is_table_driven e : wf_expr e ->
  forall k, stops k ->
  exists n, forall fuel, fuel >= n -> parse_expr fuel 1 (flat_expr e ++ k) = POk (den_expr e) k.
Proof.
  intros W k Hk. exists (3 * List.length (flat_expr e) + 2). apply parse_expr_flatten; auto.
Qed.

Theorem parse_tokens_flatten e : wf_expr e ->
  parse_tokens (flat_expr e) = POk (den_expr e) [].
Proof.
  intros W. unfold parse_tokens.
  pose proof (parse_expr_flatten e W [] stops_nil (6 * List.length (flat_expr e) + 8)) as H.
  rewrite app_nil_r in H. apply H. lia.
Qed.

Theorem parse_tokens_flatten_end e n : wf_expr e ->
  parse_tokens (flat_expr e ++ [TEnd n]) = POk (den_expr e) [TEnd n].
Proof.
  intros W. unfold parse_tokens. apply parse_expr_flatten; auto using stops_end.
  rewrite app_length. cbn [List.length]. lia.
Qed.

(** at every nesting level the result is the unique tree that is well-grouped by the table, over the
    denotations of the terms of that level as operands *)
Theorem den_expr_table_driven t r :
  exists tr : tree expr,
    den_expr (SE t r) = te tr /\ wg tr /\ first_atom tr = den_term t /\ tail_chain tr = den_rest r /\
    forall t', wg t' -> first_atom t' = den_term t -> tail_chain t' = den_rest r -> t' = tr.
Proof.
  exists (chain_tree (den_term t) (den_rest r)). split; [reflexivity|]. apply chain_tree_spec.
Qed.

(** Note: [te] forgets which EBin nodes come from a parenthesised operand (a Leaf holding an EBin) and
    which from the chain; the compiler's AST has no parenthesis node either. The grouping statement is
    therefore about the tree [tr], whose leaves are whole operands. *)

Lemma chain_tree_one a o b : chain_tree a [(o, b)] = Node o (Leaf a) (Leaf b).
Proof. symmetry. apply (chain_tree_spec a [(o, b)]); cbn; auto. Qed.

(** 1. explicit parentheses are preserved: a parenthesised expression is ONE operand (a leaf of the
       enclosing chain), whatever operators surround it *)
Theorem parens_preserved e r : wf_expr e -> wf_rest r ->
  exists tr : tree expr,
    parse_tokens (flat_expr (SE (STApp (SAParen e) ANil) r)) = POk (te tr) [] /\
    wg tr /\ first_atom tr = den_expr e /\ tail_chain tr = den_rest r.
Proof.
  intros We Wr.
  destruct (den_expr_table_driven (STApp (SAParen e) ANil) r) as (tr & E & W & FA & TC & _).
  exists tr. rewrite parse_tokens_flatten, E by (cbn; auto). auto.
Qed.

Theorem parens_preserved_right t n o e : wf_term t -> wf_expr e ->
  parse_tokens (flat_expr (SE t (SCons n o (STApp (SAParen e) ANil) SNil)))
  = POk (EBin o (den_term t) (den_expr e)) [].
Proof.
  intros Wt We. rewrite parse_tokens_flatten by (cbn; auto).
  cbn [den_expr den_rest den_term den_atom]. rewrite chain_tree_one. reflexivity.
Qed.

(** 2. application binds tighter than every operator *)
Theorem application_binds_tighter f a args g b args' n o :
  wf_atom a -> wf_args args -> wf_atom b -> wf_args args' ->
  parse_tokens (flat_expr (SE (STApp (SAId f) (ACons a args))
                              (SCons n o (STApp (SAId g) (ACons b args')) SNil)))
  = POk (EBin o (EApp (EAtom f) (den_atom a :: den_args args))
                (EApp (EAtom g) (den_atom b :: den_args args'))) [].
Proof.
  intros Wa Wargs Wb Wargs'. rewrite parse_tokens_flatten by (cbn; auto 10).
  cbn [den_expr den_rest den_term den_atom den_args]. rewrite chain_tree_one. reflexivity.
Qed.

(** 3. [not] applies to the following application, not to the whole binary expression *)
Theorem not_takes_following_application f a args n o t :
  wf_atom a -> wf_args args -> wf_term t ->
  parse_tokens (flat_expr (SE (STNot (STApp (SAId f) (ACons a args))) (SCons n o t SNil)))
  = POk (EBin o (ENot (EApp (EAtom f) (den_atom a :: den_args args))) (den_term t)) [].
Proof.
  intros Wa Wargs Wt. rewrite parse_tokens_flatten by (cbn; auto 10).
  cbn [den_expr den_rest den_term den_atom den_args]. rewrite chain_tree_one. reflexivity.
Qed.

(** 4. newlines before an operator are irrelevant *)
Fixpoint z_expr (e : sexpr) : sexpr :=
  match e with SE t r => SE (z_term t) (z_rest r) end
with z_rest (r : srest) : srest :=
  match r with SNil => SNil | SCons _ o t r => SCons 0 o (z_term t) (z_rest r) end
with z_term (t : sterm) : sterm :=
  match t with STNot t => STNot (z_term t) | STApp a args => STApp (z_atom a) (z_args args) end
with z_args (args : sargs) : sargs :=
  match args with ANil => ANil | ACons a args => ACons (z_atom a) (z_args args) end
with z_atom (a : satom) : satom :=
  match a with SAId n => SAId n | SAParen e => SAParen (z_expr e) | SAUnit => SAUnit end.

Definition strip_eol (ts : list tok) : list tok :=
  filter (fun t => match t with TEOL => false | _ => true end) ts.

Lemma strip_eol_repeat n : strip_eol (repeat TEOL n) = [].
Proof. induction n; cbn; auto. Qed.

Lemma z_flat :
  (forall e, flat_expr (z_expr e) = strip_eol (flat_expr e)) /\
  (forall r, flat_rest (z_rest r) = strip_eol (flat_rest r)) /\
  (forall t, flat_term (z_term t) = strip_eol (flat_term t)) /\
  (forall args, flat_args (z_args args) = strip_eol (flat_args args)) /\
  (forall a, flat_atom (z_atom a) = strip_eol (flat_atom a)).
Proof.
  pose proof strip_eol_repeat as R. unfold strip_eol in *.
  apply surface_mutind; intros;
    cbn [z_expr z_rest z_term z_args z_atom flat_expr flat_rest flat_term flat_args flat_atom];
    rewrite ?filter_app, ?R; cbn [filter app repeat]; rewrite ?filter_app; cbn [filter]; congruence.
Qed.

Lemma z_den :
  (forall e, den_expr (z_expr e) = den_expr e) /\
  (forall r, den_rest (z_rest r) = den_rest r) /\
  (forall t, den_term (z_term t) = den_term t) /\
  (forall args, den_args (z_args args) = den_args args) /\
  (forall a, den_atom (z_atom a) = den_atom a).
Proof.
  apply surface_mutind; intros; cbn [z_expr z_rest z_term z_args z_atom den_expr den_rest den_term
                                     den_args den_atom]; try congruence.
  destruct args; cbn [z_args den_args] in *; congruence.
Qed.

Lemma z_wf :
  (forall e, wf_expr e -> wf_expr (z_expr e)) /\
  (forall r, wf_rest r -> wf_rest (z_rest r)) /\
  (forall t, wf_term t -> wf_term (z_term t)) /\
  (forall args, wf_args args -> wf_args (z_args args)) /\
  (forall a, wf_atom a -> wf_atom (z_atom a)).
Proof.
  apply surface_mutind; intros; cbn [z_expr z_rest z_term z_args z_atom wf_expr wf_rest wf_term
                                     wf_args wf_atom] in *; try tauto.
  destruct H1 as (Wa & Wargs & Hh). repeat split; auto.
  destruct args; cbn in *; auto. destruct a; cbn in *; auto.
Qed.

(** the result does not depend on how many newlines precede each operator (at any nesting level):
    parsing the token string and parsing it with every TEOL removed give the same result *)
Theorem newline_before_operator_irrelevant e : wf_expr e ->
  parse_tokens (strip_eol (flat_expr e)) = parse_tokens (flat_expr e).
Proof.
  intros W. rewrite <- (proj1 z_flat e).
  rewrite !parse_tokens_flatten by (auto; apply (proj1 z_wf e W)).
  rewrite (proj1 z_den e). reflexivity.
Qed.

Lemma newline_counts e e' : z_expr e = z_expr e' ->
  den_expr e = den_expr e' /\
  (wf_expr e' -> parse_tokens (flat_expr e') = POk (den_expr e) []).
Proof.
  intros E.
  assert (D : den_expr e = den_expr e').
  { rewrite <- (proj1 z_den e), <- (proj1 z_den e'), E. reflexivity. }
  split; [exact D|]. intros W'. rewrite D. apply parse_tokens_flatten; exact W'.
Qed.

Corollary newline_counts_irrelevant e e' : wf_expr e -> z_expr e = z_expr e' ->
  den_expr e = den_expr e' /\
  (wf_expr e' -> parse_tokens (flat_expr e') = POk (den_expr e) []).
Proof. intros _. apply newline_counts. Qed.
